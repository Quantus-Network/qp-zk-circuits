(* The Goldilocks modulus 2^64 - 2^32 + 1 is prime, by Pocklington's form of the Lucas test:
   N is prime if F * F > N for a prime power F = q^e and some a satisfies
   a^F = 1 (mod N) and gcd (a^(F/q) - 1, N) = 1.

   Why this suffices.  Let r be a prime divisor of N and call m >= 0 an exponent of 1 if
   a^m = 1 (mod r).  These exponents are closed under difference, hence under gcd, and under
   multiples.  F is one and F/q is none, so every positive one is a multiple of F; among
   a^0 .. a^r two agree mod r, which gives a positive one that is at most r.  Hence F <= r for every
   prime divisor r of N, and since F * F > N there is room for only one. *)
From Coq Require Import ZArith Znumtheory Zpow_facts Lia List.
Import ListNotations.
Open Scope Z_scope.

Lemma prime_divisor_exists : forall n, 1 < n -> exists r, prime r /\ (r | n).
Proof.
  intros n Hn. assert (H0 : 0 <= n) by lia. revert Hn.
  pattern n. apply Z_lt_induction; [|exact H0]. clear n H0.
  intros n IH Hn. destruct (prime_dec n) as [Hp|Hnp].
  - exists n; split; [assumption|apply Z.divide_refl].
  - destruct (not_prime_divide n Hn Hnp) as [m [[Hm1 Hm2] Hdiv]].
    destruct (IH m) as [r [Hr Hrm]]; [lia|lia|].
    exists r; split; [assumption|]. eapply Z.divide_trans; eassumption.
Qed.

Lemma NoDup_map_on {A B} (f : A -> B) l :
  (forall x y, In x l -> In y l -> f x = f y -> x = y) -> NoDup l -> NoDup (map f l).
Proof.
  intros Inj ND. induction ND as [|x l Hx ND IH]; cbn [map]; constructor.
  - rewrite in_map_iff. intros [y [E Hy]]. apply Hx.
    rewrite (Inj x y); [exact Hy|left; reflexivity|right; exact Hy|symmetry; exact E].
  - apply IH. intros y z Hy Hz. apply Inj; right; assumption.
Qed.

Section Exponents.
  Variables r a : Z.
  Hypothesis Hr : 1 < r.

  Lemma pow1_sub e1 e2 : 0 <= e2 <= e1 ->
    a ^ e1 mod r = 1 -> a ^ e2 mod r = 1 -> a ^ (e1 - e2) mod r = 1.
  Proof.
    intros He H1 H2.
    assert (E : a ^ e1 = a ^ (e1 - e2) * a ^ e2).
    { rewrite <- Z.pow_add_r by lia. f_equal; lia. }
    rewrite E in H1. rewrite Z.mul_mod in H1 by lia. rewrite H2 in H1.
    rewrite Z.mul_1_r in H1. rewrite Z.mod_mod in H1 by lia. exact H1.
  Qed.

  (* Euclid's algorithm by subtraction, by induction on e1 + e2 *)
  Lemma pow1_gcd e1 e2 : 0 <= e1 -> 0 <= e2 ->
    a ^ e1 mod r = 1 -> a ^ e2 mod r = 1 -> a ^ (Z.gcd e1 e2) mod r = 1.
  Proof.
    intros H1 H2. remember (e1 + e2) as s eqn:Es. assert (Hs : 0 <= s) by lia.
    revert e1 e2 H1 H2 Es. pattern s. apply Z_lt_induction; [|exact Hs]. clear s Hs.
    intros s IH e1 e2 H1 H2 -> A1 A2.
    destruct (Z.eq_dec e1 0) as [->|N1]; [rewrite Z.gcd_0_l, Z.abs_eq by lia; exact A2|].
    destruct (Z.eq_dec e2 0) as [->|N2]; [rewrite Z.gcd_0_r, Z.abs_eq by lia; exact A1|].
    destruct (Z_le_gt_dec e2 e1) as [Hle|Hgt].
    - rewrite Z.gcd_comm, <- Z.gcd_sub_diag_r, Z.gcd_comm.
      apply (IH (e1 - e2 + e2)); try lia; try assumption. apply pow1_sub; try lia; assumption.
    - rewrite <- Z.gcd_sub_diag_r.
      apply (IH (e1 + (e2 - e1))); try lia; try assumption. apply pow1_sub; try lia; assumption.
  Qed.

  Lemma pow1_mul e k : 0 <= e -> 0 <= k -> a ^ e mod r = 1 -> a ^ (e * k) mod r = 1.
  Proof.
    intros He Hk H. rewrite Z.pow_mul_r by lia. rewrite Zpower_mod by lia. rewrite H.
    rewrite Z.pow_1_l by lia. apply Z.mod_1_l; lia.
  Qed.

  (* Some positive exponent of 1 is at most r, said without an existential: whatever bounds them all
     from below is at most r.  Otherwise a^0 .. a^r would be r + 1 distinct residues mod r. *)
  Lemma pow1_le_modulus B : rel_prime r a ->
    (forall m, 0 < m -> a ^ m mod r = 1 -> B <= m) -> B <= r.
  Proof.
    intros Hra HB. destruct (Z_le_gt_dec B r) as [|Hgt]; [assumption|exfalso].
    set (f := fun i => a ^ Z.of_nat i mod r). set (n := Z.to_nat r).
    assert (Inj : forall i j, (i < j <= n)%nat -> f i <> f j).
    { intros i j Hij E.
      enough (A : a ^ Z.of_nat (j - i) mod r = 1) by (apply HB in A; lia).
      apply Zdivide_mod_minus; [lia|].
      (* r divides a^j - a^i = a^i * (a^(j-i) - 1) and is prime to a^i *)
      apply Gauss with (a ^ Z.of_nat i); [|apply rel_prime_Zpower_r; [lia|exact Hra]].
      rewrite Z.mul_sub_distr_l, <- Z.pow_add_r, Z.mul_1_r by lia.
      replace (Z.of_nat i + Z.of_nat (j - i)) with (Z.of_nat j) by lia.
      apply Z.mod_divide; [lia|]. rewrite Zminus_mod. fold (f i) (f j).
      rewrite E, Z.sub_diag. apply Z.mod_0_l. lia. }
    assert (ND : NoDup (map f (seq 0 (S n)))).
    { apply NoDup_map_on; [|apply seq_NoDup]. intros i j Hi Hj E. apply in_seq in Hi, Hj.
      destruct (Nat.lt_trichotomy i j) as [L|[L|L]]; [exfalso|exact L|exfalso].
      - apply (Inj i j); [lia|exact E].
      - apply (Inj j i); [lia|symmetry; exact E]. }
    apply NoDup_incl_length with (l' := map Z.of_nat (seq 0 n)) in ND.
    - rewrite !map_length, !seq_length in ND. lia.
    - intros x Hx. apply in_map_iff in Hx. destruct Hx as [i [<- _]].
      pose proof (Z.mod_pos_bound (a ^ Z.of_nat i) r ltac:(lia)) as Bd. fold (f i) in Bd.
      apply in_map_iff. exists (Z.to_nat (f i)). split; [lia|apply in_seq; lia].
  Qed.
End Exponents.

(* With b = a^(q^(e-1)) mod N, b^q = a^(q^e) (mod N).
   (When N is prime such an a exists only if q^e divides N - 1.) *)
Theorem pocklington N a q e :
  1 < N -> prime q -> 0 < e -> N < q ^ e * q ^ e ->
  (let b := a ^ (q ^ (e - 1)) mod N in b ^ q mod N = 1 /\ Z.gcd (b - 1) N = 1) ->
  prime N.
Proof.
  intros HN Hq He Hsq [Hone Hgcd].
  assert (Hq1 : 1 < q) by (destruct Hq; assumption).
  assert (EF : q ^ (e - 1) * q = q ^ e).
  { rewrite Z.mul_comm, <- Z.pow_succ_r by lia. f_equal. lia. }
  assert (HF : 0 < q ^ e) by (apply Z.pow_pos_nonneg; lia).
  rewrite <- Zpower_mod, <- Z.pow_mul_r, EF in Hone by lia.
  assert (Big : forall r, prime r -> (r | N) -> q ^ e <= r).
  { intros r Hr HrN. assert (Hr1 : 1 < r) by (destruct Hr; assumption).
    assert (modr : forall x, x mod N mod r = x mod r).
    { intros x. symmetry. apply Zmod_div_mod; [lia|lia|exact HrN]. }
    assert (A1 : a ^ (q ^ e) mod r = 1) by (rewrite <- modr, Hone; apply Z.mod_1_l, Hr1).
    apply (pow1_le_modulus r a Hr1).
    - apply prime_rel_prime; [exact Hr|]. intros D.
      replace (q ^ e) with (Z.succ (q ^ e - 1)) in A1 by lia. rewrite Z.pow_succ_r in A1 by lia.
      rewrite (Zdivide_mod (a * _) r) in A1 by (apply Z.divide_mul_l, D). discriminate.
    - intros m Hm Am. set (g := Z.gcd (q ^ e) m).
      assert (Ag : a ^ g mod r = 1) by (apply pow1_gcd; try lia; assumption).
      assert (Hg : 0 < g).
      { pose proof (Z.gcd_nonneg (q ^ e) m). pose proof (Z.gcd_eq_0_l (q ^ e) m). lia. }
      apply Z.le_trans with g; [|apply Z.divide_pos_le; [exact Hm|apply Z.gcd_divide_r]].
      apply Z.divide_pos_le; [exact Hg|].
      (* q^e = k * g, and q does not divide k, since q^(e-1) is no exponent of 1 *)
      destruct (Z.gcd_divide_l (q ^ e) m) as [k Hk]. fold g in Hk.
      apply Gauss with k; [rewrite <- Hk; apply Z.divide_refl|].
      apply rel_prime_sym, rel_prime_Zpower_r, rel_prime_sym, prime_rel_prime; [lia|exact Hq|].
      intros [k' Hk'].
      assert (Aq : a ^ (q ^ (e - 1)) mod r = 1).
      { assert (Hk'pos : 0 < k').
        { rewrite Hk, Hk' in HF. apply Z.mul_pos_cancel_r in HF; [|exact Hg].
          apply Z.mul_pos_cancel_r in HF; lia. }
        replace (q ^ (e - 1)) with (g * k'); [apply pow1_mul; try assumption; lia|].
        apply Z.mul_reg_r with q; [lia|]. rewrite EF, Hk, Hk'. ring. }
      assert (D : (r | 1)).
      { rewrite <- Hgcd. apply Z.gcd_greatest; [|exact HrN].
        apply Zmod_divide_minus; [lia|]. rewrite modr. exact Aq. }
      apply Z.divide_1_r in D. lia. }
  destruct (prime_dec N) as [|Hnp]; [assumption|exfalso].
  destruct (not_prime_divide N HN Hnp) as [m [Hm [c Hc]]]. rewrite Hc in Big.
  assert (Hc1 : 1 < c).
  { destruct (Z_le_gt_dec c 1) as [L|G]; [|lia].
    pose proof (Z.mul_le_mono_nonneg_r c 1 m ltac:(lia) L). lia. }
  destruct (prime_divisor_exists m) as [r1 [P1 D1]]; [lia|].
  destruct (prime_divisor_exists c) as [r2 [P2 D2]]; [exact Hc1|].
  pose proof (Big r1 P1 (Z.divide_trans _ _ _ D1 (Z.divide_factor_r m c))).
  pose proof (Big r2 P2 (Z.divide_trans _ _ _ D2 (Z.divide_factor_l c m))).
  apply Z.divide_pos_le in D1, D2; try lia.
  pose proof (Z.mul_le_mono_nonneg (q ^ e) c (q ^ e) m). lia.
Qed.

Definition goldilocks : Z := 18446744069414584321.
Theorem goldilocks_prime : prime goldilocks.
Proof.
  unfold goldilocks. (* 7^(2^32 - 1) has order 2^32 *)
  apply (pocklington _ 1753635133440165772 2 32); [lia|exact prime_2|lia|reflexivity|].
  rewrite <- Zpow_mod_correct by lia. vm_compute. split; reflexivity.
Qed.
Print Assumptions goldilocks_prime.
