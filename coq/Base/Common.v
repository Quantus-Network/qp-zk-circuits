(* Shared vocabulary of the executable models: integers are Z, containers are lists,
   fallible functions return [res].  Nothing here is specific to one property. *)
From Coq Require Export ZArith List Bool Lia.
From Coq Require Import Permutation Sorted.
Export ListNotations.
Open Scope Z_scope.

Ltac Zify.zify_post_hook ::= Z.div_mod_to_equations.

(* The Goldilocks modulus, as a literal (kept literal so that [lia] can use it). *)
Definition p : Z := 18446744069414584321.
Definition two32 : Z := 4294967296.
Definition two64 : Z := 18446744073709551616.

Inductive res (A : Type) : Type :=
| Ok (a : A)
| Err (code : Z).
Arguments Ok {A} a.
Arguments Err {A} code.

Definition rbind {A B} (m : res A) (f : A -> res B) : res B :=
  match m with Ok a => f a | Err c => Err c end.
Notation "x <-? m ;; k" := (rbind m (fun x => k)) (at level 61, m at next level, right associativity).
Definition guard (b : bool) (code : Z) : res unit := if b then Ok tt else Err code.
Definition is_ok {A} (r : res A) : bool := match r with Ok _ => true | Err _ => false end.

Definition zlen {A} (l : list A) : Z := Z.of_nat (length l).

Definition is_u32 (x : Z) : bool := (0 <=? x) && (x <? two32).
Definition is_u64 (x : Z) : bool := (0 <=? x) && (x <? two64).
Definition is_canon (x : Z) : bool := (0 <=? x) && (x <? p).

(* split a list into consecutive chunks of [k] elements (Rust [chunks(k)], last chunk may be short) *)
Fixpoint chunks_fuel {A} (fuel : nat) (k : nat) (l : list A) : list (list A) :=
  match fuel with
  | O => []
  | S f => match l with
           | [] => []
           | _ => firstn k l :: chunks_fuel f k (skipn k l)
           end
  end.
Definition chunks {A} (k : nat) (l : list A) : list (list A) := chunks_fuel (length l) k l.

(* map with failure, left to right *)
Fixpoint mapM {A B} (f : A -> res B) (l : list A) : res (list B) :=
  match l with
  | [] => Ok []
  | x :: xs => y <-? f x ;; ys <-? mapM f xs ;; Ok (y :: ys)
  end.

Lemma zlen_nonneg {A} (l : list A) : 0 <= zlen l.
Proof. unfold zlen. lia. Qed.
Lemma zlen_app {A} (l1 l2 : list A) : zlen (l1 ++ l2) = zlen l1 + zlen l2.
Proof. unfold zlen. rewrite app_length. lia. Qed.
Lemma zlen_cons {A} (x : A) (l : list A) : zlen (x :: l) = 1 + zlen l.
Proof. unfold zlen. cbn [length]. lia. Qed.
Lemma zlen_nil {A} : zlen (@nil A) = 0.
Proof. reflexivity. Qed.
Lemma zlen_map {A B} (f : A -> B) l : zlen (map f l) = zlen l.
Proof. unfold zlen. now rewrite map_length. Qed.

(* laws of [res], [guard], [is_ok]: proofs about the fallible models go through these *)
Lemma rbind_ok_iff {A B} (m : res A) (f : A -> res B) b :
  rbind m f = Ok b <-> exists a, m = Ok a /\ f a = Ok b.
Proof.
  destruct m as [a|c]; cbn [rbind]; split.
  - intro H; exists a; auto.
  - intros (a' & E & H); inversion E; subst; exact H.
  - discriminate.
  - intros (a' & E & _); discriminate.
Qed.
Lemma rbind_unit_ok_iff {B} (m : res unit) (k : res B) b :
  (_ <-? m ;; k) = Ok b <-> m = Ok tt /\ k = Ok b.
Proof.
  rewrite rbind_ok_iff. split; [intros ([] & E & H)|intros [E H]; exists tt]; auto.
Qed.
Lemma guard_ok_iff b c u : guard b c = Ok u <-> b = true.
Proof. destruct b, u; cbn [guard]; split; intro H; try reflexivity; discriminate. Qed.
Lemma guard_bind_ok_iff {B} b c (k : res B) r : (_ <-? guard b c ;; k) = Ok r <-> b = true /\ k = Ok r.
Proof. rewrite rbind_unit_ok_iff, guard_ok_iff. reflexivity. Qed.
Lemma guard_bind_true {B} b c (k : unit -> res B) : b = true -> rbind (guard b c) k = k tt.
Proof. intros ->. reflexivity. Qed.
Lemma guard_bind_false {B} b c (k : unit -> res B) : b = false -> rbind (guard b c) k = Err c.
Proof. intros ->. reflexivity. Qed.
Lemma is_ok_iff {A} (r : res A) : is_ok r = true <-> exists a, r = Ok a.
Proof. destruct r; cbn [is_ok]; split; try discriminate; eauto. intros [? ?]; discriminate. Qed.
Lemma guard_err_iff b c k : guard b c = Err k <-> b = false /\ k = c.
Proof. destruct b; cbn [guard]; split; [discriminate|intros [E _]; discriminate E|intros [= <-]; auto|intros [_ ->]; reflexivity]. Qed.
Lemma rbind_err_iff {A B} (m : res A) (f : A -> res B) k :
  rbind m f = Err k <-> m = Err k \/ exists a, m = Ok a /\ f a = Err k.
Proof.
  destruct m as [a|c]; cbn [rbind]; split.
  - intro H. right. exists a. auto.
  - intros [E|(a' & [= <-] & H)]; [discriminate E|exact H].
  - intros [= ->]. left. reflexivity.
  - intros [[= ->]|(a' & E & _)]; [reflexivity|discriminate E].
Qed.
Lemma rbind_unit_err_iff {B} (m : res unit) (r : res B) k :
  (_ <-? m ;; r) = Err k <-> m = Err k \/ m = Ok tt /\ r = Err k.
Proof. rewrite rbind_err_iff. split; (intros [E|H]; [left; exact E|right]); [destruct H as ([] & H)|exists tt]; exact H. Qed.
Lemma guard_bind_err {B} b c (r : res B) k : (_ <-? guard b c ;; r) = Err k -> b = false /\ k = c \/ r = Err k.
Proof. destruct b; cbn [guard rbind]; [auto|intros [= <-]; auto]. Qed.
Lemma not_ok_err (r : res unit) : r <> Ok tt -> exists c, r = Err c.
Proof. destruct r as [[]|c]; [contradiction|exists c; reflexivity]. Qed.

(* "no panic": every model renders a Rust panic as the error code -1 (its constant [PANIC]) *)
Definition safe {A} (r : res A) : Prop := r <> Err (-1).

Lemma safe_ok {A} (a : A) : safe (Ok a).
Proof. discriminate. Qed.
Lemma safe_err {A} c : c <> -1 -> safe (@Err A c).
Proof. intros H E. apply H. injection E as E. exact E. Qed.
Lemma safe_if {A} (b : bool) (r s : res A) : safe r -> safe s -> safe (if b then r else s).
Proof. destruct b; auto. Qed.
Lemma safe_bind {A B} (m : res A) (f : A -> res B) :
  safe m -> (forall a, m = Ok a -> safe (f a)) -> safe (rbind m f).
Proof.
  intros Hm Hf. destruct m as [a|c]; cbn [rbind]; [apply Hf; reflexivity|].
  intro E. apply Hm. injection E as ->. reflexivity.
Qed.
Lemma safe_guard_bind {B} b c (f : unit -> res B) :
  c <> -1 -> (b = true -> safe (f tt)) -> safe (rbind (guard b c) f).
Proof. intros Hc Hf. destruct b; cbn [guard rbind]; [apply Hf; reflexivity|apply safe_err, Hc]. Qed.

Lemma and_iff_l (A B C : Prop) : (A -> (B <-> C)) -> (A /\ B <-> A /\ C).
Proof. tauto. Qed.

Lemma length4_inv {A} (l : list A) : length l = 4%nat -> exists a b c d, l = [a; b; c; d].
Proof. destruct l as [|a [|b [|c [|d [|? ?]]]]]; try discriminate. intros _. exists a, b, c, d. reflexivity. Qed.
Lemma app_inj_length {A} (a a' x y : list A) : length a = length a' -> a ++ x = a' ++ y -> a = a' /\ x = y.
Proof.
  revert a'. induction a as [|h t IH]; intros [|h' t'] L E; try discriminate L; [auto|].
  injection L as L. injection E as -> E. destruct (IH t' L E) as [-> ->]. auto.
Qed.
Lemma firstn_exact {A} (a b : list A) n : length a = n -> firstn n (a ++ b) = a.
Proof. intros <-. rewrite firstn_app, Nat.sub_diag, firstn_all. apply app_nil_r. Qed.
Lemma skipn_exact {A} (a b : list A) n : length a = n -> skipn n (a ++ b) = b.
Proof. intros <-. rewrite skipn_app, Nat.sub_diag, skipn_all. reflexivity. Qed.
Lemma firstn_skipn_mid {A} (a b c : list A) n m : length a = n -> length b = m ->
  firstn m (skipn n (a ++ b ++ c)) = b.
Proof. intros La Lb. rewrite (skipn_exact a _ n La). apply firstn_exact, Lb. Qed.
Lemma skipn_skipn_add {A} (l : list A) a b : skipn b (skipn a l) = skipn (a + b) l.
Proof.
  revert l. induction a as [|a IH]; intro l; [reflexivity|].
  destruct l as [|x l]; cbn [skipn Nat.add]; [destruct b; reflexivity|apply IH].
Qed.
Lemma nth_firstn_lt {A} (d : A) k : forall l i, (i < k)%nat -> nth i (firstn k l) d = nth i l d.
Proof.
  induction k as [|k IH]; intros l i Hi; [lia|].
  destruct l as [|x l]; [reflexivity|]. destruct i as [|i]; [reflexivity|]. cbn [firstn nth]. apply IH. lia.
Qed.
Lemma nth_skipn {A} (d : A) s : forall l i, nth i (skipn s l) d = nth (s + i) l d.
Proof.
  induction s as [|s IH]; intros l i; [reflexivity|].
  destruct l as [|x l]; cbn [skipn]; [destruct i; reflexivity|]. rewrite IH. reflexivity.
Qed.
Lemma nth0_in {A} (l : list A) d x : In x l -> In (nth 0 l d) l.
Proof. destruct l; [intros []|]. intros _. left. reflexivity. Qed.

Lemma Forall_firstn {A} (P : A -> Prop) n l : Forall P l -> Forall P (firstn n l).
Proof. intro F. revert n; induction F; intros [|n]; cbn [firstn]; auto. Qed.
Lemma Forall_skipn {A} (P : A -> Prop) n l : Forall P l -> Forall P (skipn n l).
Proof. intro F. revert n; induction F; intros [|n]; cbn [skipn]; auto. Qed.
Lemma forallb_Forall {A} (f : A -> bool) l : forallb f l = true <-> Forall (fun x => f x = true) l.
Proof. rewrite forallb_forall, Forall_forall. reflexivity. Qed.
Lemma forallb_Forall_iff {A} (f : A -> bool) (P : A -> Prop) l :
  (forall x, In x l -> (f x = true <-> P x)) -> (forallb f l = true <-> Forall P l).
Proof.
  intros E. rewrite forallb_forall, Forall_forall.
  split; intros F x Hx; apply (E x Hx), F, Hx.
Qed.
Lemma forallb_andb {A} (f g : A -> bool) l :
  forallb (fun x => f x && g x) l = forallb f l && forallb g l.
Proof.
  induction l as [|x l IH]; cbn [forallb]; [reflexivity|]. rewrite IH.
  destruct (f x), (g x), (forallb f l); reflexivity.
Qed.
Lemma Forall_repeat {A} (P : A -> Prop) a n : P a -> Forall P (repeat a n).
Proof. intros Pa. induction n; cbn [repeat]; constructor; assumption. Qed.

Lemma map_fst_combine {A B} (l : list A) : forall (l' : list B), length l' = length l -> map fst (combine l l') = l.
Proof.
  induction l as [|x l IH]; intros [|y l'] L; try discriminate L; cbn [combine map fst]; [reflexivity|].
  rewrite IH by (injection L; auto). reflexivity.
Qed.
Lemma combine_fst_Forall {A B} (P : A -> Prop) (xs : list A) : forall (ys : list B), Forall P xs ->
  Forall (fun xy => P (fst xy)) (combine xs ys).
Proof.
  intros ys F. revert ys. induction F; intros [|y ys]; cbn [combine]; constructor; auto.
Qed.
Lemma combine_snd_Forall {A B} (P : B -> Prop) (xs : list A) : forall (ys : list B), Forall P ys ->
  Forall (fun xy => P (snd xy)) (combine xs ys).
Proof.
  induction xs as [|x xs IH]; intros ys F; [constructor|]. destruct F; cbn [combine]; constructor; auto.
Qed.
Lemma combine_snd_forallb {A B} (f : B -> bool) (xs : list A) : forall ys, length xs = length ys ->
  forallb (fun xy => f (snd xy)) (combine xs ys) = forallb f ys.
Proof.
  induction xs as [|x xs IH]; intros [|y ys] L; try discriminate L; [reflexivity|].
  cbn [combine forallb snd]. rewrite IH by (injection L; auto). reflexivity.
Qed.
Lemma firstn_combine_app {A B} (s s' : list A) (ps ps' : list B) : length ps = length s ->
  firstn (length s) (combine (s ++ s') (ps ++ ps')) = combine s ps.
Proof.
  revert ps. induction s as [|a s IH]; intros [|q ps] L; try discriminate L; [reflexivity|].
  cbn [app combine length firstn]. rewrite IH by (injection L; auto). reflexivity.
Qed.

(* [chunks]: the fuel is only a bound, and a full chunk is peeled off the front *)
Lemma chunks_fuel_irrel {A} (k : nat) (f1 f2 : nat) (l : list A) :
  (0 < k)%nat -> (length l <= f1)%nat -> (length l <= f2)%nat -> chunks_fuel f1 k l = chunks_fuel f2 k l.
Proof.
  intro K. revert f2 l. induction f1 as [|f1 IH]; intros f2 l H1 H2.
  - destruct l; [|cbn [length] in H1; lia]. destruct f2; reflexivity.
  - destruct l as [|x l]; [destruct f2; reflexivity|].
    destruct f2 as [|f2]; [cbn [length] in H2; lia|].
    cbn [chunks_fuel]. f_equal. apply IH; rewrite skipn_length; cbn [length] in *; lia.
Qed.
Lemma chunks_step {A} (k : nat) (l : list A) cur :
  (0 < k)%nat -> (cur + k <= length l)%nat ->
  chunks k (skipn cur l) = firstn k (skipn cur l) :: chunks k (skipn (cur + k) l).
Proof.
  intros K B. rewrite <- skipn_skipn_add. pose proof (skipn_length cur l) as L.
  destruct (skipn cur l) as [|x r]; [cbn [length] in L; lia|].
  unfold chunks. cbn [length chunks_fuel]. f_equal.
  apply chunks_fuel_irrel; [exact K| |lia]. rewrite skipn_length. cbn [length]. lia.
Qed.

(* A list sorted by an order that is antisymmetric on its elements is the only sorted arrangement of
   its elements. *)
Lemma StronglySorted_perm_eq {A} (R : A -> A -> Prop) l1 : forall l2,
  (forall a b, In a l1 -> In b l1 -> R a b -> R b a -> a = b) ->
  StronglySorted R l1 -> StronglySorted R l2 -> Permutation l1 l2 -> l1 = l2.
Proof.
  induction l1 as [|a l1 IH]; intros l2 AS S1 S2 P.
  - symmetry. apply Permutation_nil, P.
  - destruct l2 as [|b l2]; [apply Permutation_sym, Permutation_nil in P; discriminate|].
    apply StronglySorted_inv in S1, S2. destruct S1 as [S1 F1], S2 as [S2 F2]. rewrite Forall_forall in F1, F2.
    assert (E : a = b).
    { destruct (Permutation_in b (Permutation_sym P) (or_introl eq_refl)) as [E|Ib]; [exact E|].
      destruct (Permutation_in a P (or_introl eq_refl)) as [E|Ia]; [symmetry; exact E|].
      apply AS; [left; reflexivity|right; exact Ib|apply F1, Ib|apply F2, Ia]. }
    subst b. f_equal. apply IH; [intros x y Ix Iy; apply AS; right; assumption|assumption|assumption|].
    eapply Permutation_cons_inv, P.
Qed.

Lemma fold_insert_perm {A} (ins : A -> list A -> list A) :
  (forall x l, Permutation (ins x l) (x :: l)) -> forall l, Permutation (fold_right ins [] l) l.
Proof.
  intros I l. induction l as [|x l IH]; [reflexivity|]. cbn [fold_right]. rewrite I. constructor. exact IH.
Qed.

(* Insertion sort by a decidable order [leb], spelled as the models spell theirs, so that each model's
   sort is [isort_by] of its order by conversion. *)
Section SortBy.
  Context {A : Type} (leb : A -> A -> bool).
  Local Notation le := (fun a b => leb a b = true).

  Fixpoint insert_by (x : A) (l : list A) : list A :=
    match l with
    | [] => [x]
    | y :: r => if leb x y then x :: y :: r else y :: insert_by x r
    end.
  Definition isort_by (l : list A) : list A := fold_right insert_by [] l.

  Lemma insert_by_perm x l : Permutation (insert_by x l) (x :: l).
  Proof.
    induction l as [|y r IH]; [reflexivity|]. cbn [insert_by].
    destruct (leb x y); [reflexivity|]. rewrite IH. apply perm_swap.
  Qed.
  Lemma isort_by_perm l : Permutation (isort_by l) l.
  Proof. exact (fold_insert_perm insert_by insert_by_perm l). Qed.

  Hypothesis total : forall a b, le a b \/ le b a.
  Hypothesis trans : forall a b c, le a b -> le b c -> le a c.

  Lemma insert_by_sorted x l : StronglySorted le l -> StronglySorted le (insert_by x l).
  Proof.
    induction 1 as [|y r S IH F]; [repeat constructor|]. cbn [insert_by].
    destruct (leb x y) eqn:E.
    - constructor; [constructor; assumption|]. constructor; [exact E|].
      revert F. apply Forall_impl. intros z. apply trans, E.
    - constructor; [exact IH|]. destruct (total x y) as [E'|E']; [congruence|].
      rewrite (insert_by_perm x r). constructor; assumption.
  Qed.
  Lemma isort_by_sorted l : StronglySorted le (isort_by l).
  Proof. induction l as [|x l IH]; [constructor|apply insert_by_sorted, IH]. Qed.

  Lemma isort_by_unique l s : (forall a b, In a l -> In b l -> le a b -> le b a -> a = b) ->
    Permutation s l -> StronglySorted le s -> isort_by l = s.
  Proof.
    intros AS P S. pose proof (isort_by_perm l) as Q.
    apply (StronglySorted_perm_eq le); [|apply isort_by_sorted|exact S|rewrite Q, P; reflexivity].
    intros a b Ia Ib. apply AS; apply (Permutation_in _ Q); assumption.
  Qed.
End SortBy.

(* finite function tables: how the Encoding and Loaders correspondence runs instantiate a hash oracle.
   The harness records the native hash of every list the implementation hashed; the model looks the
   value up (a missing entry is an error, so "model and implementation hash the same preimages" is
   checked, not assumed). *)
Fixpoint list_eqb (a b : list Z) : bool :=
  match a, b with
  | [], [] => true
  | x :: xs, y :: ys => (x =? y) && list_eqb xs ys
  | _, _ => false
  end.
Lemma list_eqb_spec a b : list_eqb a b = true <-> a = b.
Proof.
  revert b; induction a as [|x xs IH]; destruct b as [|y ys]; cbn [list_eqb]; split; intro H;
    try reflexivity; try discriminate.
  - apply andb_true_iff in H. destruct H as [H1 H2]. apply Z.eqb_eq in H1. apply IH in H2. congruence.
  - inversion H; subst. apply andb_true_iff. split; [apply Z.eqb_refl|apply IH; reflexivity].
Qed.
Lemma list_eqb_refl a : list_eqb a a = true.
Proof. apply list_eqb_spec. reflexivity. Qed.
Lemma list_eqb_false a b : list_eqb a b = false <-> a <> b.
Proof. rewrite <- list_eqb_spec. destruct (list_eqb a b); split; congruence. Qed.
Lemma list_eqb_sym a b : list_eqb a b = list_eqb b a.
Proof.
  destruct (list_eqb b a) eqn:E; [apply list_eqb_spec in E|apply list_eqb_false in E];
    [apply list_eqb_spec|apply list_eqb_false]; congruence.
Qed.
Definition table := list (list Z * list Z).
Fixpoint tbl_lookup (t : table) (k : list Z) : option (list Z) :=
  match t with
  | [] => None
  | (k', v) :: r => if list_eqb k' k then Some v else tbl_lookup r k
  end.
(* alternating key / value segments *)
Fixpoint tbl_of_segs (segs : list (list Z)) : table :=
  match segs with
  | k :: v :: r => (k, v) :: tbl_of_segs r
  | _ => []
  end.
