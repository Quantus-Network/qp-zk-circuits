(* Proofs about the loader model (C17).

   Acceptance.  A loader is a chain of binds; [bind_iff], [bind_unit_iff], [read_bind_iff] say that the chain accepts iff
   every step does, so "result (loader d) = Ok tt" is turned, one [apply] per step, into the nested conjunction of the
   steps' own conditions; [unpack] and [repack] then reorder that into the flat form of the statements.
   Effects.  The only effects of the directory loaders are capped reads of their own files: one lemma per loader
   ([*_reads]) says that whatever holds of every event of those reads holds of every event of the loader. *)
From V.Base Require Import Common.
From V.Generated Require Import Constants.
From V.Sys Require Parsers.
From V.Sys Require Import Loaders.

(* [unpack H] takes the conjunctions and existentials of H apart (with the goal folded away, so that it is not carried
   through every case analysis); [repack] builds the goal's existentials and conjunctions from the pieces, left to
   right, so that a witness is known before the conjuncts that mention it.  Together they reorder conjuncts and
   witnesses, nothing else. *)
Ltac unpack H := lazymatch goal with |- ?G => let g := fresh in set (g := G); decompose [and ex] H; subst g end.
Ltac repack :=
  lazymatch goal with
  | |- exists _, _ => eexists; repack
  | |- _ /\ _ => split; [repack|repack]
  | |- _ => first [eassumption | reflexivity | split; [repack|repack]]
  end.
Ltac in_files := cbn; auto 12.

Lemma result_lbind {A B} (m : L A) (f : A -> L B) b :
  result (lbind m f) = Ok b <-> exists a, result m = Ok a /\ result (f a) = Ok b.
Proof.
  unfold result, lbind. destruct m as [t [a|c]]; cbn [fst snd].
  - split; [intro H; exists a; split; [reflexivity|exact H]|intros (a' & E & H); inversion E; subst; exact H].
  - split; [discriminate|intros (a' & E & _); discriminate].
Qed.

Lemma bind_iff {A B} (m : L A) (k : A -> L B) r (P Q : A -> Prop) :
  (forall a, result m = Ok a <-> P a) -> (forall a, P a -> (result (k a) = Ok r <-> Q a)) ->
  (result (lbind m k) = Ok r <-> exists a, P a /\ Q a).
Proof.
  intros HP HQ. rewrite result_lbind. split; intros (a & Ha & H); exists a.
  - apply HP in Ha. split; [exact Ha|apply (HQ a Ha), H].
  - split; [apply HP, Ha|apply (HQ a Ha), H].
Qed.

Lemma bind_unit_iff {B} (m : L unit) (k : L B) r (P Q : Prop) :
  (result m = Ok tt <-> P) -> (result k = Ok r <-> Q) -> (result (_ <-! m ;; k) = Ok r <-> P /\ Q).
Proof.
  intros HP HQ. rewrite result_lbind, <- HP, <- HQ. split; [intros ([] & H)|intro H; exists tt]; exact H.
Qed.

Lemma emit_bind_iff {B} e (k : L B) r (Q : Prop) : (result k = Ok r <-> Q) -> (result (_ <-! emit e ;; k) = Ok r <-> Q).
Proof. intro H. exact H. Qed.

Lemma lret_iff {A} (a b : A) : result (lret a) = Ok b <-> a = b.
Proof. split; [intros [= ->]|intros ->]; reflexivity. Qed.

Lemma result_lguard b c : result (lguard b c) = Ok tt <-> b = true.
Proof. apply guard_ok_iff. Qed.
Lemma result_lguard_leb x y c : result (lguard (x <=? y) c) = Ok tt <-> x <= y.
Proof. rewrite result_lguard. apply Z.leb_le. Qed.
Lemma result_lguard_eqb x y c : result (lguard (list_eqb x y) c) = Ok tt <-> x = y.
Proof. rewrite result_lguard. apply list_eqb_spec. Qed.

Lemma of_opt_ok {A} (o : option A) c a : of_opt o c = Ok a <-> o = Some a.
Proof. destruct o; cbn; split; intro H; inversion H; reflexivity. Qed.

Lemma Forall_trace_lbind {A B} (P : ev -> Prop) (m : L A) (f : A -> L B) :
  Forall P (trace m) -> (forall a, Forall P (trace (f a))) -> Forall P (trace (lbind m f)).
Proof.
  intros Hm Hf. unfold trace, lbind in *. destruct (snd m); cbn [fst]; [|exact Hm].
  apply Forall_app. split; [exact Hm|apply Hf].
Qed.

Lemma lbind_ext {A B} (m m' : L A) (f g : A -> L B) :
  m = m' -> (forall a, f a = g a) -> lbind m f = lbind m' g.
Proof. intros -> H. unfold lbind. destruct (snd m'); [rewrite H; reflexivity|reflexivity]. Qed.

Lemma count_ok_iff n : count_ok n = Ok tt <-> 1 <= n <= MAX_PROOF_COUNT \/ (n < 0).
Proof.
  unfold count_ok, Parsers.validate_proof_count, guard, rbind.
  destruct (Z.eqb_spec n 0) as [->|N]; cbn [negb].
  - split; [discriminate|intros [H|H]; unfold MAX_PROOF_COUNT in *; lia].
  - destruct (Z.leb_spec n MAX_PROOF_COUNT) as [Hle|Hgt]; split; intro X; try reflexivity; try discriminate; unfold MAX_PROOF_COUNT in *; lia.
Qed.
(* counts are usize values: non-negative *)
Lemma count_ok_nonneg n : 0 <= n -> (count_ok n = Ok tt <-> 1 <= n <= MAX_PROOF_COUNT).
Proof. intro Hn. rewrite count_ok_iff. lia. Qed.
Lemma count_ok_unit n u : count_ok n = Ok u <-> count_ok n = Ok tt.
Proof. destruct u. split; intro H; exact H. Qed.

(* stat, then the size test on the claimed length, then (within the cap) the read *)
Lemma read_artifact_file_eq cap id d :
  read_artifact_file cap id d =
  match d id with
  | None => ([EvStat id], Err E_OTHER)
  | Some f => if f_len f <=? cap then ([EvStat id; EvRead id], Ok (f_bytes f)) else ([EvStat id], Err E_SIZE)
  end.
Proof.
  unfold read_artifact_file. destruct (d id) as [f|]; [|reflexivity]. destruct (f_len f <=? cap); reflexivity.
Qed.

Lemma read_oversize cap id d f :
  d id = Some f -> f_len f > cap -> read_artifact_file cap id d = ([EvStat id], Err E_SIZE).
Proof. intros E H. rewrite read_artifact_file_eq, E, (proj2 (Z.leb_gt _ _)) by lia. reflexivity. Qed.

Lemma read_ok cap id d f :
  d id = Some f -> f_len f <= cap -> read_artifact_file cap id d = ([EvStat id; EvRead id], Ok (f_bytes f)).
Proof. intros E H. rewrite read_artifact_file_eq, E, (proj2 (Z.leb_le _ _)) by exact H. reflexivity. Qed.

Lemma read_result_ok cap id d b :
  result (read_artifact_file cap id d) = Ok b <-> exists f, d id = Some f /\ f_len f <= cap /\ b = f_bytes f.
Proof.
  rewrite read_artifact_file_eq. destruct (d id) as [f|]; [destruct (Z.leb_spec (f_len f) cap)|]; cbn [result snd].
  - split; [intros [= <-]; exists f; auto|intros (f' & [= <-] & _ & ->); reflexivity].
  - split; [discriminate|intros (f' & [= <-] & Hle & _); lia].
  - split; [discriminate|intros (f' & [=] & _)].
Qed.

Lemma read_bind_iff {B} cap id d (k : bytes -> L B) r (Q : file -> Prop) :
  (forall f, result (k (f_bytes f)) = Ok r <-> Q f) ->
  (result (lbind (read_artifact_file cap id d) k) = Ok r <-> exists f, d id = Some f /\ f_len f <= cap /\ Q f).
Proof.
  intro HQ. rewrite result_lbind. split.
  - intros (b & Hb & H). apply read_result_ok in Hb as (f & E & Hle & ->). exists f. rewrite <- HQ. auto.
  - intros (f & E & Hle & H). exists (f_bytes f). rewrite HQ, read_result_ok. eauto.
Qed.

(* the only things a capped read touches are the metadata and (within the cap) the contents of file [id] *)
Lemma read_trace_ids (P : ev -> Prop) cap id d :
  P (EvStat id) -> P (EvRead id) -> Forall P (trace (read_artifact_file cap id d)).
Proof.
  intros H1 H2. rewrite read_artifact_file_eq. destruct (d id) as [f|]; [destruct (f_len f <=? cap)|];
    repeat constructor; assumption.
Qed.

(* a file whose claimed length exceeds the cap is never read, whatever else the directory holds *)
Lemma read_never_oversize cap id d id' f :
  d id' = Some f -> f_len f > cap -> Forall (fun e => e <> EvRead id') (trace (read_artifact_file cap id d)).
Proof.
  intros E H. rewrite read_artifact_file_eq.
  destruct (d id) as [f'|] eqn:E'; [destruct (Z.leb_spec (f_len f') cap)|]; repeat constructor; try discriminate.
  intros [= ->]. rewrite E in E'. injection E' as <-. lia.
Qed.

Lemma read_agree cap id d d' : d id = d' id -> read_artifact_file cap id d = read_artifact_file cap id d'.
Proof. intro E. unfold read_artifact_file. rewrite E. reflexivity. Qed.

(* a loader is binds over reads, of which [H] speaks, and steps whose events, if any, are not reads *)
Ltac reads_tac H :=
  repeat first [ apply H; in_files | apply Forall_trace_lbind; [|intros ?] | constructor; [discriminate|] | constructor ].

Section VerifierProofs.
  Set Default Proof Using "Type".
  Variable keccak : bytes -> bytes.
  Variables pin_v pin_c : bytes.
  Variable decode_ok : bytes -> bytes -> bool.

  Notation vbytes := (verifier_new_from_bytes keccak pin_v pin_c decode_ok).
  Notation vfiles := (verifier_new_from_files keccak pin_v pin_c decode_ok).

  Lemma verifier_bytes_iff v c :
    result (vbytes v c) = Ok tt <->
    zlen v <= MAX_VERIFIER_ARTIFACT_BYTES /\ zlen c <= MAX_VERIFIER_ARTIFACT_BYTES /\
    keccak v = pin_v /\ keccak c = pin_c /\ decode_ok v c = true.
  Proof.
    unfold verifier_new_from_bytes. etransitivity.
    { apply bind_unit_iff; [apply result_lguard_leb|]. apply bind_unit_iff; [apply result_lguard_leb|].
      apply emit_bind_iff. apply bind_unit_iff; [apply result_lguard_eqb|].
      apply emit_bind_iff. apply bind_unit_iff; [apply result_lguard_eqb|].
      apply bind_unit_iff; [apply result_lguard|reflexivity]. }
    split; intro H; unpack H; repack.
  Qed.

  (* over the cap: rejected with the size error and NOTHING has been hashed (empty log) *)
  Lemma verifier_bytes_oversize v c :
    zlen v > MAX_VERIFIER_ARTIFACT_BYTES \/ zlen c > MAX_VERIFIER_ARTIFACT_BYTES ->
    vbytes v c = ([], Err E_SIZE).
  Proof.
    intros H. unfold verifier_new_from_bytes.
    destruct (Z.leb_spec (zlen v) MAX_VERIFIER_ARTIFACT_BYTES); [|reflexivity].
    destruct (Z.leb_spec (zlen c) MAX_VERIFIER_ARTIFACT_BYTES); [lia|reflexivity].
  Qed.

  (* hashing happens only within the cap *)
  Lemma verifier_bytes_hash_within_cap v c :
    existsb is_hash (trace (vbytes v c)) = true ->
    zlen v <= MAX_VERIFIER_ARTIFACT_BYTES /\ zlen c <= MAX_VERIFIER_ARTIFACT_BYTES.
  Proof.
    intros H.
    assert (N : ~ (zlen v > MAX_VERIFIER_ARTIFACT_BYTES \/ zlen c > MAX_VERIFIER_ARTIFACT_BYTES)).
    { intro O. rewrite (verifier_bytes_oversize v c O) in H. discriminate. }
    lia.
  Qed.

  Lemma verifier_bytes_only_canonical (can_v can_c : bytes) v c :
    pin_v = keccak can_v -> pin_c = keccak can_c ->
    (keccak v = keccak can_v -> v = can_v) -> (keccak c = keccak can_c -> c = can_c) ->
    result (vbytes v c) = Ok tt ->
    zlen v <= MAX_VERIFIER_ARTIFACT_BYTES /\ zlen c <= MAX_VERIFIER_ARTIFACT_BYTES /\ v = can_v /\ c = can_c.
  Proof.
    intros Pv Pc Iv Ic H. apply verifier_bytes_iff in H. destruct H as (H1 & H2 & H3 & H4 & _).
    subst pin_v pin_c. auto.
  Qed.

  (* an oversized verifier file: only its metadata is looked at; nothing is read, nothing is hashed *)
  Lemma verifier_files_oversize_first d idv idc fv :
    d idv = Some fv -> f_len fv > MAX_VERIFIER_ARTIFACT_BYTES ->
    vfiles d idv idc = ([EvStat idv], Err E_SIZE).
  Proof. intros E H. unfold verifier_new_from_files. rewrite (read_oversize _ _ _ _ E H). reflexivity. Qed.

  (* an oversized common file: the (in-cap) verifier file has been read, the common file only stat'ed, nothing hashed *)
  Lemma verifier_files_oversize_second d idv idc fv fc :
    d idv = Some fv -> f_len fv <= MAX_VERIFIER_ARTIFACT_BYTES ->
    d idc = Some fc -> f_len fc > MAX_VERIFIER_ARTIFACT_BYTES ->
    vfiles d idv idc = ([EvStat idv; EvRead idv; EvStat idc], Err E_SIZE).
  Proof.
    intros Ev Lv Ec Hc. unfold verifier_new_from_files.
    rewrite (read_ok _ _ _ _ Ev Lv), (read_oversize _ _ _ _ Ec Hc). reflexivity.
  Qed.

  Lemma verifier_files_never_read_oversize d idv idc id f :
    d id = Some f -> f_len f > MAX_VERIFIER_ARTIFACT_BYTES ->
    Forall (fun e => e <> EvRead id) (trace (vfiles d idv idc)).
  Proof.
    intros E H. unfold verifier_new_from_files, verifier_new_from_bytes.
    pose proof (fun i => read_never_oversize _ i _ _ _ E H) as R. reads_tac R.
  Qed.
End VerifierProofs.

Section AggregatorProofs.
  Set Default Proof Using "Type".
  Variables leaf_c leaf_v : bytes.
  Variable canon_pb : Z -> bytes * bytes.
  Variable canon_pub : Z -> Z -> bytes * bytes.
  Variables reser_c reser_v : bytes -> option bytes.
  Variable cfg_ok : bytes -> bool.
  Variable leaf_template_ok : bytes -> bool.
  Variable pb_template_ok : Z -> bytes -> bool.
  Variable parse_config : bytes -> option (Z * option Z).

  Notation ld_leaf := (load_canonical_leaf leaf_c leaf_v).
  Notation ld_pb := (load_canonical_private_batch canon_pb).
  Notation ld_pub := (load_public_batch canon_pub reser_c reser_v cfg_ok).
  Notation ld_cfg := (load_config parse_config).
  Notation priv_prover := (private_prover_from_dir leaf_c leaf_v leaf_template_ok parse_config).
  Notation pub_prover := (public_prover_from_dir canon_pb pb_template_ok parse_config).
  Notation agg_new := (aggregator_new canon_pb canon_pub reser_c reser_v cfg_ok pb_template_ok parse_config).
  Notation gen_pb := (gen_private_batch leaf_c leaf_v).
  Notation gen_pub := (gen_public_batch canon_pb).

  Lemma ensure_bytes_match_iff common vo cc cv u :
    ensure_bytes_match common vo cc cv = Ok u <-> common = cc /\ vo = cv.
  Proof.
    destruct u. unfold ensure_bytes_match. rewrite !guard_bind_ok_iff, !list_eqb_spec.
    split; intro H; unpack H; repack.
  Qed.

  Lemma load_canonical_leaf_iff common vo u :
    ld_leaf common vo = Ok u <-> common = leaf_c /\ vo = leaf_v.
  Proof. apply ensure_bytes_match_iff. Qed.

  Lemma load_canonical_private_batch_iff common vo n u : 0 <= n ->
    (ld_pb common vo n = Ok u <->
     1 <= n <= MAX_PROOF_COUNT /\ common = fst (canon_pb n) /\ vo = snd (canon_pb n)).
  Proof.
    intro Hn. unfold load_canonical_private_batch.
    rewrite rbind_unit_ok_iff, (count_ok_nonneg n Hn), ensure_bytes_match_iff. reflexivity.
  Qed.

  (* well-formed parsed configs: usize counts *)
  Definition cfg_nonneg (cfg : Z * option Z) : Prop :=
    0 <= fst cfg /\ match snd cfg with Some m => 0 <= m | None => True end.

  Lemma load_config_ok d cfg : (forall b c, parse_config b = Some c -> cfg_nonneg c) ->
    (result (ld_cfg d) = Ok cfg <->
     exists f, d F_CONFIG = Some f /\ f_len f <= MAX_ARTIFACT_FILE_BYTES /\ parse_config (f_bytes f) = Some cfg /\
       1 <= fst cfg <= MAX_PROOF_COUNT /\ match snd cfg with Some m => 1 <= m <= MAX_PROOF_COUNT | None => True end).
  Proof.
    intro WF. unfold load_config, CAP. etransitivity.
    { apply read_bind_iff; intro f. apply bind_iff; [intro; apply of_opt_ok|intros c Hc].
      destruct (WF _ _ Hc) as [N1 N2]. apply bind_unit_iff; [apply count_ok_nonneg, N1|].
      apply (bind_unit_iff _ _ _ (match snd c with Some m => 1 <= m <= MAX_PROOF_COUNT | None => True end));
        [|apply lret_iff].
      destruct (snd c) as [m|]; [apply count_ok_nonneg, N2|split; reflexivity]. }
    split; intro H; unpack H; subst; repack.
  Qed.

  Definition PRIVATE_PROVER_FILES := [F_CONFIG; F_COMMON; F_VERIFIER; F_DUMMY].
  Definition PUBLIC_PROVER_FILES := [F_CONFIG; F_PB_COMMON; F_PB_VERIFIER; F_PB_DUMMY].
  Definition AGGREGATOR_FILES := [F_CONFIG; F_PB_COMMON; F_PB_VERIFIER; F_PB_DUMMY; F_PUB_COMMON; F_PUB_VERIFIER].

  Lemma private_prover_reads (P : ev -> Prop) d :
    (forall id, In id PRIVATE_PROVER_FILES -> Forall P (trace (read_artifact_file CAP id d))) ->
    Forall P (trace (priv_prover d)).
  Proof. intro H. unfold private_prover_from_dir, load_config. reads_tac H. Qed.

  Lemma public_prover_reads (P : ev -> Prop) d :
    (forall id, In id PUBLIC_PROVER_FILES -> Forall P (trace (read_artifact_file CAP id d))) ->
    Forall P (trace (pub_prover d)).
  Proof. intro H. unfold public_prover_from_dir, load_config. reads_tac H. Qed.

  Lemma aggregator_new_reads (P : ev -> Prop) d :
    (forall id, In id AGGREGATOR_FILES -> Forall P (trace (read_artifact_file CAP id d))) ->
    Forall P (trace (agg_new d)).
  Proof. intro H. unfold aggregator_new, load_config, load_public_batch. reads_tac H. Qed.

  Lemma gen_private_batch_reads (P : ev -> Prop) d n :
    (forall id, In id [F_COMMON; F_VERIFIER] -> Forall P (trace (read_artifact_file CAP id d))) ->
    Forall P (trace (gen_pb d n)).
  Proof. intro H. unfold gen_private_batch. reads_tac H. Qed.

  Lemma gen_public_batch_reads (P : ev -> Prop) d m n :
    (forall id, In id [F_PB_COMMON; F_PB_VERIFIER] -> Forall P (trace (read_artifact_file CAP id d))) ->
    Forall P (trace (gen_pub d m n)).
  Proof. intro H. unfold gen_public_batch. reads_tac H. Qed.

  Lemma reads_not_prover ids cap d : forallb (fun i => negb (is_prover_id i)) ids = true ->
    forall id, In id ids -> Forall (fun e => is_prover_id (ev_id e) = false) (trace (read_artifact_file cap id d)).
  Proof.
    intros Hall id Hin. rewrite forallb_forall in Hall. apply Hall, negb_true_iff in Hin.
    apply read_trace_ids; exact Hin.
  Qed.

  (* a loader's whole behaviour depends only on its own files: extra files, bogus *_prover.bin, ... are inert *)
  Definition dir_agree (ids : list Z) (d d' : dir) : Prop := forall i, In i ids -> d i = d' i.

  Ltac agree_tac H := repeat first [ reflexivity | apply read_agree; apply H; in_files | apply lbind_ext; [|intros ?] ].

  Lemma private_prover_agree d d' : dir_agree PRIVATE_PROVER_FILES d d' -> priv_prover d = priv_prover d'.
  Proof. intro H. unfold private_prover_from_dir, load_config. agree_tac H. Qed.

  Lemma public_prover_agree d d' : dir_agree PUBLIC_PROVER_FILES d d' -> pub_prover d = pub_prover d'.
  Proof. intro H. unfold public_prover_from_dir, load_config. agree_tac H. Qed.

  Lemma aggregator_new_agree d d' : dir_agree AGGREGATOR_FILES d d' -> agg_new d = agg_new d'.
  Proof. intro H. unfold aggregator_new, load_config, load_public_batch. agree_tac H. Qed.

  (* gen_private_batch: if F_COMMON, the first file it consults, is over the cap, it fails with the size error having read none *)
  Lemma gen_private_batch_oversize d n f : count_ok n = Ok tt ->
    d F_COMMON = Some f -> f_len f > MAX_ARTIFACT_FILE_BYTES ->
    gen_pb d n = ([EvStat F_COMMON], Err E_SIZE).
  Proof.
    intros Hn E H. unfold gen_private_batch, CAP. rewrite Hn, (read_oversize _ _ _ _ E H). reflexivity.
  Qed.
End AggregatorProofs.
