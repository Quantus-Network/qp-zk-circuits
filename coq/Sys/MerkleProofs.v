(* Proofs about the native Merkle-proof model (Sys/Merkle.v) and its link to the leaf circuit's tree walk
   (Circ/Leaf.v, through Circ/LeafProofs.v).  H is an arbitrary function returning four canonical field
   elements ([hash_wf]).  [u64], [typed_digest], [typed_level] are the Rust types (Hash256 = 4 limbs below 2^64,
   [Hash256; 3]); [hash_le] / [hash_lt] the byte-lexicographic order of the 32-byte strings; [rank cur sibs] the
   number of siblings strictly below [cur] in that order.  The circuit side rests on LeafProofs.path_tail_det and
   merkle_walk_det, which are stated over the program text of [path_circuit] (LeafProofs.v does not depend on Sys/Merkle.v, where that name is given). *)
From Coq Require Import Permutation Sorted.
From V.Base Require Import Common.
From V.Generated Require Import Constants.
From V.Circ Require Import Field Core Prims Gadgets GadgetsProofs Leaf LeafProofs.
From V.Sys Require EncodingProofs.
From V.Sys Require Import Merkle.
Import ListNotations.

Lemma modulus_pin : MERKLE_GOLDILOCKS_MODULUS = p. Proof. reflexivity. Qed.
Lemma arity_pin : MERKLE_ARITY = 4 /\ MERKLE_SIBLINGS_PER_LEVEL = 3. Proof. split; reflexivity. Qed.
Lemma n_log_depth_pin : Z.of_nat n_log_depth = Z.log2 MERKLE_MAX_DEPTH + 1. Proof. reflexivity. Qed.

Definition map2_ := map2.
Definition gated_ok (xs ys : list Z) (flag : Z) : bool :=
  forallb (fun xy => fmul (fsub (fst xy) (snd xy)) flag =? 0) (combine xs ys).
Lemma gated_ok_0 xs ys : gated_ok xs ys 0 = true.
Proof. apply LeafProofs.gated_ok_0. Qed.

Definition u64 (v : Z) : Prop := 0 <= v < two64.
Definition typed_digest (d : digest) : Prop := length d = 4%nat /\ Forall u64 d.
Definition typed_level (l : list digest) : Prop := length l = 3%nat /\ Forall typed_digest l.
Definition canonical (d : digest) : Prop := length d = 4%nat /\ Forall canon d.
Definition canonical_level (l : list digest) : Prop := length l = 3%nat /\ Forall canonical l.
Definition hash_wf (H : list Z -> list Z) : Prop := forall l, canonical (H l).

Record typed_proof (pr : proof) : Prop := mk_typed_proof {
  tp_siblings : Forall typed_level (pf_siblings pr);
  tp_positions : Forall (fun q => 0 <= q < 256) (pf_positions pr);
  tp_leaf : typed_digest (pf_leaf pr);
  tp_root : typed_digest (pf_root pr)
}.

Lemma canonical_typed d : canonical d -> typed_digest d.
Proof. intros [L F]. split; [exact L|]. eapply Forall_impl; [|exact F]. exact canon_lt_two64. Qed.
Lemma canonical_level_typed l : canonical_level l -> typed_level l.
Proof. intros [L F]. split; [exact L|]. eapply Forall_impl; [|exact F]. apply canonical_typed. Qed.

Lemma canonical_typed_proof s ps leaf root :
  canonical leaf -> Forall canonical_level s -> Forall (fun q => 0 <= q < 256) ps -> typed_digest root ->
  typed_proof (mkProof s ps leaf root).
Proof.
  intros Cl Cs Tq Tr. constructor; cbn; [|exact Tq|apply canonical_typed, Cl|exact Tr].
  eapply Forall_impl; [|exact Cs]. apply canonical_level_typed.
Qed.

Lemma is_canonical_hash_spec d : typed_digest d -> (is_canonical_hash d = true <-> canonical d).
Proof.
  intros [L F]. unfold is_canonical_hash, canonical.
  rewrite (forallb_Forall_iff _ canon).
  - tauto.
  - intros v Hv. rewrite Forall_forall in F. specialize (F v Hv). unfold u64 in F.
    rewrite Z.ltb_lt, modulus_pin. unfold canon. lia.
Qed.

Lemma digests_canonical_spec ds : Forall typed_digest ds -> (forallb is_canonical_hash ds = true <-> Forall canonical ds).
Proof.
  intros T. apply forallb_Forall_iff. intros d Hd. apply is_canonical_hash_spec. rewrite Forall_forall in T. auto.
Qed.
Lemma levels_canonical_spec ls : Forall typed_level ls ->
  (forallb (forallb is_canonical_hash) ls = true <-> Forall canonical_level ls).
Proof.
  intros F. apply forallb_Forall_iff. intros l Hl. rewrite Forall_forall in F. destruct (F l Hl) as [L T].
  unfold canonical_level. rewrite (digests_canonical_spec l T). tauto.
Qed.

Lemma hash_eqb_spec a b : hash_eqb a b = true <-> a = b.
Proof. apply list_eqb_spec. Qed.
Lemma hash_eqb_refl a : hash_eqb a a = true.
Proof. apply hash_eqb_spec. reflexivity. Qed.

(* the same function as LeafProofs.insert_at *)
Definition insert_at (pos : Z) (cur : digest) (sibs : list digest) : list digest :=
  firstn (Z.to_nat pos) sibs ++ cur :: skipn (Z.to_nat pos) sibs.
Definition pos_ok (q : Z) : bool := (0 <=? q) && (q <? 4).
Lemma pos_ok_spec q : pos_ok q = true <-> 0 <= q < 4.
Proof. unfold pos_ok. rewrite andb_true_iff, Z.leb_le, Z.ltb_lt. tauto. Qed.

Lemma insert_at_position_len3 cur sibs pos : length sibs = 3%nat ->
  insert_at_position cur sibs pos = if pos_ok pos then Ok (insert_at pos cur sibs) else Err 1.
Proof.
  intros L. destruct sibs as [|s0 [|s1 [|s2 [|? ?]]]]; try discriminate L.
  unfold insert_at_position, pos_ok.
  destruct (Z.eqb_spec pos 0) as [->|N0]; [reflexivity|].
  destruct (Z.eqb_spec pos 1) as [->|N1]; [reflexivity|].
  destruct (Z.eqb_spec pos 2) as [->|N2]; [reflexivity|].
  destruct (Z.eqb_spec pos 3) as [->|N3]; [reflexivity|].
  destruct (Z.leb_spec 0 pos), (Z.ltb_spec pos 4); cbn [andb]; try reflexivity. lia.
Qed.

Lemma insert_at_length pos cur sibs : length (insert_at pos cur sibs) = S (length sibs).
Proof.
  unfold insert_at. rewrite app_length. cbn [length]. rewrite Nat.add_succ_r, <- app_length, firstn_skipn.
  reflexivity.
Qed.
Lemma insert_at_perm pos cur sibs : Permutation (insert_at pos cur sibs) (cur :: sibs).
Proof.
  unfold insert_at. rewrite <- (firstn_skipn (Z.to_nat pos) sibs) at 3.
  symmetry. apply Permutation_middle.
Qed.

Lemma hash_node_presorted_canonical H ch : Forall canonical ch -> hash_node_presorted H ch = Ok (H (concat ch)).
Proof.
  intros F. unfold hash_node_presorted. rewrite (proj2 (digests_canonical_spec ch (Forall_impl _ canonical_typed F)) F).
  reflexivity.
Qed.
Lemma hash_node_presorted_ok_iff H ch : Forall typed_digest ch ->
  (is_ok (hash_node_presorted H ch) = true <-> Forall canonical ch).
Proof.
  intros T. rewrite <- (digests_canonical_spec ch T). unfold hash_node_presorted.
  destruct (forallb is_canonical_hash ch); reflexivity.
Qed.

Fixpoint fold_insert (H : list Z -> list Z) (cur : digest) (levels : list (list digest * Z)) : digest :=
  match levels with
  | [] => cur
  | (sibs, pos) :: r => fold_insert H (H (concat (insert_at pos cur sibs))) r
  end.

(* the same function as in Circ/LeafProofs.v, whose lemmas about the walk are stated over its own copy *)
Lemma fold_insert_eq : fold_insert = LeafProofs.fold_insert. Proof. reflexivity. Qed.

Lemma walk_spec H : hash_wf H -> forall levels cur, canonical cur ->
  Forall (fun lv => canonical_level (fst lv)) levels ->
  walk H cur levels =
  if forallb (fun lv => pos_ok (snd lv)) levels then Some (fold_insert H cur levels) else None.
Proof.
  intros Hwf. induction levels as [|[sibs pos] r IH]; intros cur C F; cbn [walk forallb fold_insert]; [reflexivity|].
  inversion F as [|? ? [L Fs] Fr]; subst. cbn [fst snd] in *.
  rewrite insert_at_position_len3 by exact L.
  destruct (pos_ok pos); cbn [andb]; [|reflexivity].
  rewrite hash_node_presorted_canonical
    by (apply (Permutation_Forall (Permutation_sym (insert_at_perm pos cur sibs))); constructor; assumption).
  apply IH; [apply Hwf|exact Fr].
Qed.

Lemma zlen_eq {A B} (a : list A) (b : list B) : zlen a = zlen b <-> length a = length b.
Proof. unfold zlen. lia. Qed.

Lemma if_false_iff (b c : bool) : (if b then false else c) = true <-> b = false /\ c = true.
Proof. destruct b; intuition discriminate. Qed.

Theorem verify_iff H pr : hash_wf H -> typed_proof pr ->
  (verify_with_positions H pr = true <->
   zlen (pf_siblings pr) <= 16 /\
   length (pf_positions pr) = length (pf_siblings pr) /\
   canonical (pf_leaf pr) /\
   Forall canonical_level (pf_siblings pr) /\
   Forall (fun q => 0 <= q < 4) (pf_positions pr) /\
   fold_insert H (pf_leaf pr) (combine (pf_siblings pr) (pf_positions pr)) = pf_root pr).
Proof.
  intros Hwf [Ts Tp Tl Tr]. unfold verify_with_positions.
  rewrite (Z.eqb_sym (zlen (pf_siblings pr))), !if_false_iff, !negb_false_iff, Z.ltb_ge, Z.eqb_eq, zlen_eq,
    (is_canonical_hash_spec _ Tl), (levels_canonical_spec _ Ts).
  do 3 (apply and_iff_l; intros ?). apply and_iff_l. intros Cs.
  rewrite (walk_spec H Hwf), (combine_snd_forallb pos_ok) by (try apply combine_fst_Forall; auto).
  rewrite <- (forallb_Forall_iff pos_ok (fun q => 0 <= q < 4)) by (intros; apply pos_ok_spec).
  destruct (forallb pos_ok (pf_positions pr)); [rewrite hash_eqb_spec; tauto|].
  split; [discriminate|intros [E _]; discriminate E].
Qed.

(* what the guards of fill_path test *)
Lemma verify_needs H pr : hash_wf H -> typed_proof pr -> verify H pr = true ->
  zlen (pf_siblings pr) <= 16 /\ zlen (pf_positions pr) = zlen (pf_siblings pr) /\
  forallb (fun q => q <=? 3) (pf_positions pr) = true.
Proof.
  intros Hwf T V. apply (verify_iff H pr Hwf T) in V. destruct V as (D & L & _ & _ & F & _).
  split; [exact D|]. split; [apply zlen_eq, L|]. apply forallb_forall. intros q Hq.
  rewrite Forall_forall in F. apply F in Hq. apply Z.leb_le. lia.
Qed.

Definition hash_le (a b : digest) : Prop := hash_leb a b = true.
Definition hash_lt (a b : digest) : Prop := hash_ltb a b = true.

(* the readable form of "strictly below": the first differing byte decides *)
Inductive lex_lt : list Z -> list Z -> Prop :=
| lex_lt_here x y a b : x < y -> lex_lt (x :: a) (y :: b)
| lex_lt_next x a b : lex_lt a b -> lex_lt (x :: a) (x :: b).

Lemma lex_leb_false_iff a : forall b, length a = length b -> (lex_leb b a = false <-> lex_lt a b).
Proof.
  induction a as [|x a IH]; intros [|y b] L; cbn [length] in L; try discriminate.
  - cbn. split; [discriminate|intros I; inversion I].
  - cbn [lex_leb]. destruct (Z.ltb_spec y x) as [Lyx|Gyx].
    + split; [discriminate|]. intros I. inversion I; subst; lia.
    + destruct (Z.ltb_spec x y) as [Lxy|Gxy].
      * split; [intros _; constructor; exact Lxy|reflexivity].
      * assert (x = y) by lia. subst y. rewrite IH by lia.
        split; [intros I; constructor; exact I|intros I; inversion I; subst; [lia|assumption]].
Qed.

(* [to_le] and [lex_leb] are spelled in Merkle.v as they are in Encoding.v: what EncodingProofs shows of its
   copies holds of these by conversion.

   Bytes of a hash: 32 of them, and they determine the limbs. *)
Lemma to_le_length n x : length (to_le n x) = n.
Proof. exact (EncodingProofs.to_le_length n x). Qed.

Lemma to_le_inj n : forall x y, to_le n x = to_le n y -> x mod 256 ^ Z.of_nat n = y mod 256 ^ Z.of_nat n.
Proof.
  induction n as [|n IH]; intros x y E.
  - cbn. rewrite !Z.mod_1_r. reflexivity.
  - cbn [to_le] in E. inversion E as [[E0 E1]]. apply IH in E1.
    assert (P : 0 < 256 ^ Z.of_nat n) by (apply Z.pow_pos_nonneg; lia).
    rewrite Nat2Z.inj_succ, Z.pow_succ_r, !Z.rem_mul_r, E0, E1 by first [assumption|discriminate|apply Nat2Z.is_nonneg].
    reflexivity.
Qed.
Lemma bytes_of_limb_inj x y : u64 x -> u64 y -> bytes_of_limb x = bytes_of_limb y -> x = y.
Proof.
  unfold bytes_of_limb, u64. intros Hx Hy E. apply to_le_inj in E. change (256 ^ Z.of_nat 8) with two64 in E.
  rewrite !Z.mod_small in E by assumption. exact E.
Qed.

Lemma bytes_of_digest_inj a : forall b, Forall u64 a -> Forall u64 b -> length a = length b ->
  bytes_of_digest a = bytes_of_digest b -> a = b.
Proof.
  induction a as [|x a IH]; intros [|y b] Fa Fb L E; cbn [length] in L; try discriminate; [reflexivity|].
  inversion Fa; inversion Fb; subst. cbn [bytes_of_digest flat_map] in E.
  apply app_inj_length in E; [|unfold bytes_of_limb; rewrite !to_le_length; reflexivity].
  destruct E as [E1 E2]. f_equal; [apply bytes_of_limb_inj; assumption|apply IH; try assumption; lia].
Qed.
Lemma bytes_of_digest_length d : length (bytes_of_digest d) = (8 * length d)%nat.
Proof.
  induction d as [|x d IH]; [reflexivity|]. cbn [bytes_of_digest flat_map length].
  rewrite app_length. unfold bytes_of_limb at 1. rewrite to_le_length. fold (bytes_of_digest d). rewrite IH. lia.
Qed.

Lemma hash_le_refl a : hash_le a a.
Proof. exact (EncodingProofs.lex_refl _). Qed.
Lemma hash_le_total a b : hash_le a b \/ hash_le b a.
Proof. exact (EncodingProofs.lex_total _ _). Qed.
Lemma hash_le_trans a b c : hash_le a b -> hash_le b c -> hash_le a c.
Proof. exact (EncodingProofs.lex_trans _ _ _). Qed.
Lemma hash_le_antisym a b : typed_digest a -> typed_digest b -> hash_le a b -> hash_le b a -> a = b.
Proof.
  intros [La Fa] [Lb Fb] H1 H2. apply bytes_of_digest_inj; try assumption; [congruence|].
  exact (EncodingProofs.lex_antisym _ _ H1 H2).
Qed.
(* strictly below = the byte strings differ and the first differing byte is smaller *)
Lemma hash_lt_spec a b : length a = length b -> (hash_lt a b <-> lex_lt (bytes_of_digest a) (bytes_of_digest b)).
Proof.
  intros L. unfold hash_lt, hash_ltb, hash_leb. rewrite negb_true_iff.
  apply lex_leb_false_iff. rewrite !bytes_of_digest_length. lia.
Qed.

(* [sort_hashes] is [isort_by hash_leb], by conversion *)
Lemma sort_perm l : Permutation (sort_hashes l) l.
Proof. exact (isort_by_perm hash_leb l). Qed.
Lemma sort_sorted l : StronglySorted hash_le (sort_hashes l).
Proof. exact (isort_by_sorted hash_leb hash_le_total hash_le_trans l). Qed.
Lemma sort_Forall (P : digest -> Prop) l : Forall P l -> Forall P (sort_hashes l).
Proof. exact (Permutation_Forall (Permutation_sym (sort_perm l))). Qed.
(* the sorted arrangement of a multiset of (typed) hashes is unique: this is what [T]::sort returns,
   whatever the algorithm *)
Lemma sort_unique l s : Forall typed_digest l -> Permutation s l -> StronglySorted hash_le s -> sort_hashes l = s.
Proof.
  intros T. apply (isort_by_unique hash_leb hash_le_total hash_le_trans).
  rewrite Forall_forall in T. intros a b Ia Ib. apply hash_le_antisym; apply T; assumption.
Qed.

Definition count_lt (cur : digest) (l : list digest) : nat := length (filter (fun s => hash_ltb s cur) l).
Definition rank (cur : digest) (sibs : list digest) : Z := Z.of_nat (count_lt cur sibs).

Lemma count_lt_perm cur l l' : Permutation l l' -> count_lt cur l = count_lt cur l'.
Proof.
  unfold count_lt. induction 1 as [|x l l' P IH|x y l|l l' l'' P1 IH1 P2 IH2]; cbn [filter].
  - reflexivity.
  - destruct (hash_ltb x cur); cbn [length]; rewrite IH; reflexivity.
  - destruct (hash_ltb x cur), (hash_ltb y cur); reflexivity.
  - congruence.
Qed.
Lemma count_lt_le cur l : (count_lt cur l <= length l)%nat.
Proof.
  unfold count_lt. induction l as [|x l IH]; cbn [filter length]; [lia|].
  destruct (hash_ltb x cur); cbn [length]; lia.
Qed.
Lemma count_lt_cons_self cur l : count_lt cur (cur :: l) = count_lt cur l.
Proof. unfold count_lt. cbn [filter]. unfold hash_ltb. rewrite (hash_le_refl cur). reflexivity. Qed.
Lemma count_lt_all_ge cur l : Forall (hash_le cur) l -> count_lt cur l = 0%nat.
Proof.
  unfold count_lt. induction 1 as [|x l Hx F IH]; [reflexivity|]. cbn [filter].
  unfold hash_ltb. rewrite Hx. cbn [negb]. exact IH.
Qed.

Lemma find_index_sorted cur l : typed_digest cur -> Forall typed_digest l -> StronglySorted hash_le l -> In cur l ->
  find_index (hash_eqb cur) l = Some (count_lt cur l).
Proof.
  intros Tc. induction l as [|x r IH]; intros T S I; [destruct I|].
  inversion T as [|? ? Tx Tr]; subst. inversion S as [|? ? Sr Fx]; subst.
  cbn [find_index]. destruct (hash_eqb cur x) eqn:E.
  - apply hash_eqb_spec in E. subst x. rewrite count_lt_cons_self, count_lt_all_ge by exact Fx. reflexivity.
  - destruct I as [->|I]; [rewrite hash_eqb_refl in E; discriminate|].
    rewrite IH by assumption. f_equal.
    unfold count_lt at 2. cbn [filter].
    assert (Lt : hash_ltb x cur = true).
    { unfold hash_ltb. destruct (hash_leb cur x) eqn:Le; [|reflexivity]. exfalso.
      rewrite Forall_forall in Fx. specialize (Fx cur I).
      assert (x = cur) by (apply hash_le_antisym; assumption). subst x. rewrite hash_eqb_refl in E. discriminate. }
    rewrite Lt. reflexivity.
Qed.

Lemma find_index_split f : forall l n, find_index f l = Some n ->
  exists a x b, l = a ++ x :: b /\ length a = n /\ f x = true /\ remove_nth n l = a ++ b.
Proof.
  induction l as [|y r IH]; intros n E; cbn [find_index] in E; [discriminate|].
  destruct (f y) eqn:Fy.
  - inversion E; subst. exists [], y, r. repeat split; assumption.
  - destruct (find_index f r) as [m|] eqn:Er; [|discriminate]. inversion E; subst.
    destruct (IH m eq_refl) as (a & x & b & -> & L & Fx & R).
    exists (y :: a), x, b. cbn [app length remove_nth]. rewrite R, L. repeat split. exact Fx.
Qed.

Lemma sorted_remove {A} (R : A -> A -> Prop) a x b : StronglySorted R (a ++ x :: b) -> StronglySorted R (a ++ b).
Proof.
  induction a as [|y a IH]; cbn [app]; intros S; inversion S as [|? ? S' F]; subst; [exact S'|].
  constructor; [apply IH; exact S'|].
  apply Forall_app in F. destruct F as [F1 F2]. inversion F2; subst. apply Forall_app. split; assumption.
Qed.

Lemma insert_at_split (a b : list digest) x : insert_at (Z.of_nat (length a)) x (a ++ b) = a ++ x :: b.
Proof.
  unfold insert_at. rewrite Nat2Z.id, firstn_app, skipn_app, Nat.sub_diag, firstn_all, skipn_all.
  cbn [firstn skipn app]. rewrite app_nil_r. reflexivity.
Qed.

(* one level of from_unsorted *)
Lemma level_normalised cur lv : typed_digest cur -> Forall typed_digest lv ->
  let sorted := sort_hashes (cur :: lv) in
  find_index (hash_eqb cur) sorted = Some (count_lt cur lv) /\
  Permutation (remove_nth (count_lt cur lv) sorted) lv /\
  StronglySorted hash_le (remove_nth (count_lt cur lv) sorted) /\
  insert_at (rank cur lv) cur (remove_nth (count_lt cur lv) sorted) = sorted.
Proof.
  intros Tc Tl sorted.
  assert (P : Permutation sorted (cur :: lv)) by apply sort_perm.
  assert (Ts : Forall typed_digest sorted) by (apply sort_Forall; constructor; assumption).
  assert (I : In cur sorted) by (apply (Permutation_in _ (Permutation_sym P)); left; reflexivity).
  assert (E : find_index (hash_eqb cur) sorted = Some (count_lt cur lv)).
  { rewrite (find_index_sorted cur sorted Tc Ts (sort_sorted _) I).
    rewrite (count_lt_perm cur _ _ P), count_lt_cons_self. reflexivity. }
  split; [exact E|].
  destruct (find_index_split _ _ _ E) as (a & x & b & Es & La & Fx & R).
  apply hash_eqb_spec in Fx. subst x. rewrite R.
  split; [|split].
  - apply Permutation_cons_inv with (a := cur). rewrite <- P, Es. apply Permutation_middle.
  - apply (sorted_remove hash_le a cur b). rewrite <- Es. apply sort_sorted.
  - unfold rank. rewrite <- La, Es. apply insert_at_split.
Qed.

(* the root reached from [cur] through unsorted child sets (each set hashed in sorted order) *)
Fixpoint root_of (H : list Z -> list Z) (cur : digest) (levels : list (list digest)) : digest :=
  match levels with
  | [] => cur
  | lv :: r => root_of H (H (concat (sort_hashes (cur :: lv)))) r
  end.

(* what from_unsorted stores for a path: per level the position is the rank of the running hash, the
   stored siblings are the given ones, sorted, and inserting the running hash at the position gives the
   sorted child set *)
Fixpoint normalised (H : list Z -> list Z) (cur : digest) (unsorted stored : list (list digest)) (positions : list Z) : Prop :=
  match unsorted, stored, positions with
  | [], [], [] => True
  | lv :: ur, s :: sr, q :: qr =>
      q = rank cur lv /\ Permutation s lv /\ StronglySorted hash_le s /\
      insert_at q cur s = sort_hashes (cur :: lv) /\
      normalised H (H (concat (sort_hashes (cur :: lv)))) ur sr qr
  | _, _, _ => False
  end.

Lemma fu_loop_spec H : hash_wf H -> forall levels cur, canonical cur -> Forall (Forall canonical) levels ->
  exists ss ps, fu_loop H cur levels = Ok (ss, ps, root_of H cur levels) /\ normalised H cur levels ss ps.
Proof.
  intros Hwf. induction levels as [|lv r IH]; intros cur C F.
  - exists [], []. split; [reflexivity|exact I].
  - inversion F as [|? ? Fl Fr]; subst. cbn [fu_loop root_of].
    assert (Tl : Forall typed_digest lv) by (eapply Forall_impl; [|exact Fl]; apply canonical_typed).
    destruct (level_normalised cur lv (canonical_typed _ C) Tl) as (E & P & S & Ins). cbv zeta in E, P, S, Ins.
    rewrite E.
    rewrite hash_node_presorted_canonical by (apply sort_Forall; constructor; assumption).
    destruct (IH (H (concat (sort_hashes (cur :: lv)))) (Hwf _) Fr) as (ss & ps & E2 & N).
    rewrite E2. eexists _, _. split; [reflexivity|].
    cbn [normalised]. fold (rank cur lv). repeat (split; [first [reflexivity|assumption]|]). exact N.
Qed.

Lemma normalised_spec H : forall unsorted cur stored positions,
  Forall canonical_level unsorted -> normalised H cur unsorted stored positions ->
  length stored = length unsorted /\ length positions = length stored /\
  Forall canonical_level stored /\ Forall (fun q => 0 <= q < 4) positions /\
  fold_insert H cur (combine stored positions) = root_of H cur unsorted.
Proof.
  induction unsorted as [|lv ur IH]; intros cur [|s sr] [|q qr] C N; cbn [normalised] in N; try contradiction.
  - repeat constructor.
  - destruct N as (-> & Pm & _ & E & N). inversion C as [|? ? [Ll Cl] Cr]; subst.
    destruct (IH _ _ _ Cr N) as (L1 & L2 & Cs & Rq & F).
    cbn [length combine fold_insert root_of]. rewrite E, L2, L1.
    split; [reflexivity|]. split; [reflexivity|]. split; [constructor; [split|exact Cs]|].
    + rewrite (Permutation_length Pm). exact Ll.
    + exact (Permutation_Forall (Permutation_sym Pm) Cl).
    + split; [constructor; [|exact Rq]|exact F]. unfold rank. pose proof (count_lt_le cur lv). lia.
Qed.

Lemma compute_root_spec H : hash_wf H -> forall levels cur, canonical cur -> Forall (Forall canonical) levels ->
  compute_root H cur levels = Ok (root_of H cur levels).
Proof.
  intros Hwf. induction levels as [|lv r IH]; intros cur C F; cbn [compute_root root_of]; [reflexivity|].
  inversion F as [|? ? Fl Fr]; subst. unfold hash_node.
  rewrite hash_node_presorted_canonical by (apply sort_Forall; constructor; assumption).
  cbn [rbind]. apply IH; [apply Hwf|exact Fr].
Qed.

(* from_unsorted behind its three guards *)
Lemma from_unsorted_unfold H u leaf root :
  from_unsorted H u leaf root =
  if (zlen u <=? MERKLE_MAX_DEPTH) && is_canonical_hash leaf && forallb (forallb is_canonical_hash) u
  then match fu_loop H leaf u with Err c => Err c | Ok (ss, ps, _) => Ok (mkProof ss ps leaf root) end
  else Err (if zlen u <=? MERKLE_MAX_DEPTH then if is_canonical_hash leaf then 3 else 2 else 1).
Proof. unfold from_unsorted. destruct (_ <=? _), (is_canonical_hash leaf), (forallb _ u); reflexivity. Qed.

Lemma path_guards_spec u leaf : typed_digest leaf -> Forall typed_level u ->
  ((zlen u <=? MERKLE_MAX_DEPTH) && is_canonical_hash leaf && forallb (forallb is_canonical_hash) u = true <->
   zlen u <= 16 /\ canonical leaf /\ Forall canonical_level u).
Proof.
  intros Tl Ts. rewrite !andb_true_iff, Z.leb_le, (is_canonical_hash_spec _ Tl), (levels_canonical_spec _ Ts). tauto.
Qed.

Lemma from_unsorted_normalises H sibs leaf root : hash_wf H ->
  zlen sibs <= 16 -> canonical leaf -> Forall canonical_level sibs ->
  exists ss ps, from_unsorted H sibs leaf root = Ok (mkProof ss ps leaf root) /\ normalised H leaf sibs ss ps.
Proof.
  intros Hwf D Cl Cs.
  assert (Ts : Forall typed_level sibs) by (eapply Forall_impl; [|exact Cs]; apply canonical_level_typed).
  rewrite from_unsorted_unfold, (proj2 (path_guards_spec sibs leaf (canonical_typed _ Cl) Ts)) by tauto.
  destruct (fu_loop_spec H Hwf sibs leaf Cl) as (ss & ps & -> & N);
    [eapply Forall_impl; [|exact Cs]; intros l [_ C]; exact C|].
  exists ss, ps. split; [reflexivity|exact N].
Qed.

Lemma normalised_verify H leaf sibs ss ps : hash_wf H ->
  zlen sibs <= 16 -> canonical leaf -> Forall canonical_level sibs -> normalised H leaf sibs ss ps ->
  canonical (root_of H leaf sibs) /\
  forall root, typed_digest root ->
    typed_proof (mkProof ss ps leaf root) /\
    (verify H (mkProof ss ps leaf root) = true <-> root = root_of H leaf sibs).
Proof.
  intros Hwf D Cl Cs N. destruct (normalised_spec H _ _ _ _ Cs N) as (Ls & Lp & Css & Rq & Fd).
  split; [rewrite <- Fd; apply fold_insert_wf; assumption|]. intros root Tr.
  assert (T : typed_proof (mkProof ss ps leaf root)).
  { apply canonical_typed_proof; try assumption. eapply Forall_impl; [|exact Rq]. cbv beta. lia. }
  split; [exact T|]. unfold verify. rewrite (verify_iff H _ Hwf T). cbn [pf_leaf pf_root pf_siblings pf_positions].
  rewrite Fd. assert (zlen ss <= 16) by (unfold zlen in *; lia).
  split; [intros V; symmetry; apply V|intros ->; tauto].
Qed.

(* hash_node of a child set = the sponge over the sorted children; any arrangement gives the same hash *)
Lemma hash_node_perm H c1 c2 : Forall typed_digest c1 -> Permutation c1 c2 -> hash_node H c1 = hash_node H c2.
Proof.
  intros T P. unfold hash_node. f_equal. apply sort_unique; [exact T| |apply sort_sorted].
  rewrite sort_perm. symmetry. exact P.
Qed.

(* a path followed by padding: the first [length s] levels are the path, and the padding passes the range check *)
Lemma padded_levels (s pad_s : list (list digest)) ps pad_q :
  length ps = length s -> length pad_q = length pad_s -> Forall (fun q => 0 <= q < 4) pad_q ->
  firstn (Z.to_nat (zlen s)) (combine (s ++ pad_s) (ps ++ pad_q)) = combine s ps /\
  positions_ok (combine (s ++ pad_s) (ps ++ pad_q)) = forallb (fun q => q <? 4) ps.
Proof.
  intros Lq Lpad Qpad. split; [unfold zlen; rewrite Nat2Z.id; apply firstn_combine_app, Lq|].
  rewrite positions_ok_combine by (rewrite !app_length; lia).
  rewrite forallb_app. replace (forallb (fun q => q <? 4) pad_q) with true; [apply andb_true_r|].
  symmetry. apply forallb_forall. intros q Hq. rewrite Forall_forall in Qpad. apply Z.ltb_lt, Qpad, Hq.
Qed.

Section Circuit.
  Variable H : list Z -> list Z.
  Hypothesis Hwf : hash_wf H.
  Notation hon := (Core.hon H).

  (* The path constraints of a real statement are satisfiable exactly when the native verifier accepts the same
     path, for every padding of the unused levels (canonical hashes, positions below 4); and the walk computes the
     native fold. *)
  Lemma path_circuit_native s ps leaf root pad_s pad_q :
    canonical leaf -> Forall canonical_level s -> Forall (fun q => 0 <= q < 256) ps -> canonical root ->
    length ps = length s -> (length s + length pad_s = 16)%nat -> length pad_q = length pad_s ->
    Forall canonical_level pad_s -> Forall (fun q => 0 <= q < 4) pad_q ->
    gdet H (path_circuit (zlen s) leaf (s ++ pad_s) (ps ++ pad_q) root 1) (verify H (mkProof s ps leaf root)) tt /\
    hon (merkle_walk 0 (zlen s) leaf (combine (s ++ pad_s) (ps ++ pad_q)))
    = if forallb (fun q => q <? 4) ps then Some (fold_insert H leaf (combine s ps)) else None.
  Proof.
    intros Cl Cs Tq Cr Lq L16 Lpad Cpad Qpad.
    assert (Cd : canon (zlen s)) by (unfold zlen, canon, p; lia).
    assert (Fq : Forall canon (ps ++ pad_q)).
    { apply Forall_app. split; (eapply Forall_impl; [|first [exact Tq|exact Qpad]]);
        cbv beta; intros q Hq; apply canon_u32; unfold two32; lia. }
    assert (Fs : Forall canonical_level (s ++ pad_s)) by (apply Forall_app; split; assumption).
    destruct (padded_levels s pad_s ps pad_q Lq Lpad Qpad) as [Fn Pq].
    split.
    - destruct (path_tail_det H (zlen s) leaf (s ++ pad_s) (ps ++ pad_q) root 1 Cd Fq)
        as (ok & G & Eok); [rewrite app_length; lia|].
      replace (verify H (mkProof s ps leaf root)) with ok; [exact G|].
      rewrite (Eok Hwf Cl Fs), Fn, Pq. apply eq_true_iff_eq. unfold verify.
      rewrite (verify_iff H _ Hwf (canonical_typed_proof s ps leaf root Cl Cs Tq (canonical_typed _ Cr))).
      cbn [pf_siblings pf_positions pf_leaf pf_root].
      rewrite !andb_true_iff, Z.ltb_lt, max_depth_pin, fold_insert_eq.
      rewrite (gated_ok_1 4) by (try apply fold_insert_wf; assumption).
      rewrite (lt4_spec ps) by (eapply Forall_impl; [|exact Tq]; cbv beta; lia).
      assert (D17 : zlen s < 17 <-> zlen s <= 16) by lia. tauto.
    - destruct (merkle_walk_det H (zlen s) Cd ltac:(unfold zlen; lia) (combine (s ++ pad_s) (ps ++ pad_q)) 0
                  leaf ltac:(lia)) as (r & G & Er).
      { rewrite combine_length, !app_length. lia. }
      { apply combine_snd_Forall, Fq. }
      rewrite (gdet_hon H _ _ _ G), Pq. destruct (forallb _ ps) eqn:P; [|reflexivity].
      rewrite (Er Hwf Cl (combine_fst_Forall _ _ _ Fs)), Z.sub_0_r, Fn by exact Pq. reflexivity.
  Qed.

  (* the prover's own data path: ZkMerkleProofData::new + fill_targets + the path constraints *)
  Theorem prover_data_iff_native s ps leaf root :
    canonical leaf -> Forall canonical_level s -> Forall (fun q => 0 <= q < 256) ps -> canonical root ->
    circuit_accepts_path H leaf s ps root = verify H (mkProof s ps leaf root).
  Proof.
    intros Cl Cs Tq Cr. unfold circuit_accepts_path, fill_path. rewrite max_depth_pin.
    pose proof (verify_needs H _ Hwf (canonical_typed_proof s ps leaf root Cl Cs Tq (canonical_typed _ Cr))) as V.
    cbn [pf_siblings pf_positions] in V.
    destruct (Z.ltb_spec 16 (zlen s)) as [Big|Small].
    { destruct (verify H _); [|reflexivity]. destruct (V eq_refl). lia. }
    destruct (Z.eqb_spec (zlen ps) (zlen s)) as [El|Nl]; cbn [negb].
    2:{ destruct (verify H _); [|reflexivity]. destruct (V eq_refl) as (_ & L & _). contradiction. }
    apply zlen_eq in El.
    destruct (forallb (fun q => q <=? 3) ps) eqn:Pq; cbn [negb].
    2:{ destruct (verify H _); [|reflexivity]. destruct (V eq_refl) as (_ & _ & F). discriminate F. }
    set (pad := (Z.to_nat 16 - length s)%nat).
    destruct (path_circuit_native s ps leaf root (repeat zero_level pad) (repeat 0 pad) Cl Cs Tq Cr El) as [G _].
    - rewrite repeat_length. unfold pad, zlen in *. lia.
    - rewrite !repeat_length. reflexivity.
    - apply Forall_repeat, zero_level_wf.
    - apply Forall_repeat. lia.
    - rewrite (gdet_hon H _ _ _ G). destruct (verify H _); reflexivity.
  Qed.
End Circuit.

(* Byte-distinct aliases: where the circuit and the native verifier part ways.  The prover's conversion
   (bytes_to_digest = from_noncanonical_u64) maps a limb v + p to the field element v, so the circuit sees the
   canonical path while the native verifier rejects the byte string. *)
Lemma felt_of_canonical d : canonical d -> map felt_of_limb d = d.
Proof.
  intros [_ F]. induction F as [|x l Hx F IH]; [reflexivity|]. cbn [map]. rewrite IH. f_equal.
  unfold felt_of_limb. apply Z.mod_small. exact Hx.
Qed.

Theorem noncanonical_gap H : hash_wf H ->
  exists pr, typed_proof pr /\ verify H pr = false /\
    circuit_accepts_path H (map felt_of_limb (pf_leaf pr)) (map (map (map felt_of_limb)) (pf_siblings pr))
                         (pf_positions pr) (map felt_of_limb (pf_root pr)) = true.
Proof.
  intros Hwf.
  set (leaf := [0; 0; 0; 0]). set (lv := fun a => [[a; 0; 0; 0]; [1; 0; 0; 0]; [2; 0; 0; 0]]).
  set (root := H (concat (leaf :: lv 0))). set (pr := fun a => mkProof [lv a] [0] leaf root).
  assert (Cl : canonical leaf) by (apply (wf_listb_spec 4); reflexivity).
  assert (Cs : Forall canonical_level [lv 0]) by (constructor; [apply wf_levelb_spec; reflexivity|constructor]).
  assert (Rq : Forall (fun q => 0 <= q < 4) [0]) by (repeat constructor; lia).
  assert (Tq : Forall (fun q => 0 <= q < 256) [0]) by (repeat constructor; lia).
  assert (T0 : typed_proof (pr 0)).
  { apply canonical_typed_proof; [exact Cl|exact Cs|exact Tq|apply canonical_typed, Hwf]. }
  exists (pr p). split; [|split; [reflexivity|]].
  - destruct T0 as [_ _ Tl Tr]. constructor; [|exact Tq|exact Tl|exact Tr].
    repeat constructor; unfold u64, p, two64; lia.
  - cbn [pr pf_siblings pf_positions pf_leaf pf_root]. rewrite (felt_of_canonical root (Hwf _)).
    change (circuit_accepts_path H leaf [lv 0] [0] root = true).
    rewrite (prover_data_iff_native H Hwf [lv 0] [0] leaf root Cl Cs Tq (Hwf _)).
    apply (verify_iff H (pr 0) Hwf T0). cbn [pr pf_siblings pf_positions pf_leaf pf_root].
    split; [cbn; lia|]. split; [reflexivity|]. split; [exact Cl|]. split; [exact Cs|]. split; [exact Rq|reflexivity].
Qed.

Definition toyH (l : list Z) : list Z :=
  [fold_right (fun x acc => (x + 3 * acc) mod p) 1 l; fold_right (fun x acc => (2 * x + 5 * acc) mod p) 2 l; 5; 7].
Lemma toyH_wf : hash_wf toyH.
Proof.
  intros l. split; [reflexivity|].
  assert (C : forall f a, canon a -> canon (fold_right (fun x acc => f x acc mod p) a l)).
  { intros f a Ha. destruct l; cbn [fold_right]; [exact Ha|apply Z.mod_pos_bound; reflexivity]. }
  unfold toyH. repeat (constructor; [try apply C; unfold canon, p; lia|]). constructor.
Qed.
