From V.Base Require Import Common.
From V.Sys Require Import DebugRender.

Definition same_rendering (d1 d2 : doc) : Prop :=
  render_compact d1 = render_compact d2 /\ render_pretty d1 = render_pretty d2.

(* No lemma about the renderers is needed for non-interference: debug_<type> does not mention the private
   projections, so two values that agree on the printed fields have the same document. *)
Lemma same_rendering_of_eq d1 d2 : d1 = d2 -> same_rendering d1 d2.
Proof. intros ->. split; reflexivity. Qed.

(* value of a digit string, most significant first *)
Definition undec (s : list Z) : Z := fold_left (fun acc c => 10 * acc + (c - 48)) s 0.

(* the same, read after the digits of [acc] *)
Definition undec_from (acc : Z) (s : list Z) : Z := fold_left (fun acc c => 10 * acc + (c - 48)) s acc.

Lemma undec_from_eq s : forall acc, undec_from acc s = acc * 10 ^ Z.of_nat (length s) + undec s.
Proof.
  induction s as [|c r IH]; intros acc.
  - cbn. lia.
  - change (undec_from (10 * acc + (c - 48)) r = acc * 10 ^ Z.of_nat (length (c :: r)) + undec_from (10 * 0 + (c - 48)) r).
    rewrite !IH. cbn [length]. rewrite Nat2Z.inj_succ, Z.pow_succ_r by lia. lia.
Qed.

Lemma undec_cons c s : undec (c :: s) = (c - 48) * 10 ^ Z.of_nat (length s) + undec s.
Proof. change (undec (c :: s)) with (undec_from (10 * 0 + (c - 48)) s). rewrite undec_from_eq. lia. Qed.

(* dec_go pushes the decimal digits of [n] in front of [acc]; 2^fuel > n is enough fuel *)
Lemma dec_go_value : forall fuel n acc,
  0 <= n -> n < 2 ^ Z.of_nat fuel -> undec (dec_go fuel n acc) = n * 10 ^ Z.of_nat (length acc) + undec acc.
Proof.
  induction fuel as [|f IH]; intros n acc Hn Hlt.
  - assert (n = 0) by (cbn in Hlt; lia). subst n. reflexivity.
  - cbn [dec_go]. rewrite Nat2Z.inj_succ, Z.pow_succ_r in Hlt by lia.
    destruct (Z.eqb_spec (n / 10) 0) as [E|E].
    + rewrite undec_cons. replace (48 + n mod 10 - 48) with n by lia. reflexivity.
    + rewrite IH, undec_cons by lia. cbn [length]. rewrite Nat2Z.inj_succ, Z.pow_succ_r by lia. nia.
Qed.
