(* Proofs about the proof-pool model (C19-C22).

   The bucket map is read through [keyed_entries]: the pooled proofs, each with the key of its bucket.
   Every operation is an insertion, a filter or the identity on that list, and the invariant [Inv] speaks
   of the map through it, through the keys and the index, and through one clause per bucket ([bucketwise]). *)
From V.Base Require Import Common.
From V.Generated Require Import Constants.
From V.Sys Require Import Pool.

Lemma let_pair {A B C} (p : A * B) (f : A -> B -> C) : (let '(a, b) := p in f a b) = f (fst p) (snd p).
Proof. destruct p. reflexivity. Qed.

Lemma mem_spec n l : mem n l = true <-> In n l.
Proof.
  unfold mem. rewrite existsb_exists. setoid_rewrite list_eqb_spec. split; [intros (x & Hin & ->); exact Hin|eauto].
Qed.

Lemma mem_false n l : mem n l = false <-> ~ In n l.
Proof. rewrite <- mem_spec. symmetry. apply not_true_iff_false. Qed.

Lemma filter_length_le {A} (f : A -> bool) l : (length (filter f l) <= length l)%nat.
Proof. induction l as [|x l IH]; cbn [filter length]; [lia|]. destruct (f x); cbn [length]; lia. Qed.

Lemma filter_filter_length_le {A} (f g : A -> bool) l :
  (length (filter f (filter g l)) <= length (filter f l))%nat.
Proof.
  induction l as [|x l IH]; [cbn; lia|]. cbn [filter].
  destruct (g x), (f x) eqn:F; cbn [filter length]; rewrite ?F; cbn [length]; lia.
Qed.

Lemma filter_true {A} (l : list A) : filter (fun _ => true) l = l.
Proof. induction l as [|x l IH]; cbn [filter]; [reflexivity|]. rewrite IH. reflexivity. Qed.

Lemma filter_false {A} (l : list A) : filter (fun _ => false) l = [].
Proof. induction l as [|x l IH]; cbn [filter]; [reflexivity|exact IH]. Qed.

Lemma filter_map_comm {A B} (f : A -> B) (g : B -> bool) l :
  filter g (map f l) = map f (filter (fun x => g (f x)) l).
Proof.
  induction l as [|x l IH]; cbn [filter map]; [reflexivity|].
  destruct (g (f x)); cbn [map]; rewrite IH; reflexivity.
Qed.

Lemma filter_flat_map {A B} (f : A -> list B) (g : B -> bool) l :
  filter g (flat_map f l) = flat_map (fun x => filter g (f x)) l.
Proof.
  induction l as [|x l IH]; cbn [flat_map filter]; [reflexivity|].
  rewrite filter_app, IH. reflexivity.
Qed.

Lemma not_in_filter {A} (f : A -> bool) x l : In x l -> ~ In x (filter f l) -> f x = false.
Proof. intros Hin Hni. apply not_true_iff_false. intro Fx. apply Hni, filter_In. auto. Qed.

Lemma two_members {A} (l : list A) x y : In x l -> In y l -> x <> y -> (2 <= length l)%nat.
Proof. destruct l as [|a [|b r]]; cbn [In length]; [contradiction|intros [->|[]] [->|[]]; congruence|lia]. Qed.

Lemma insert_filter_length {A} (f : A -> bool) l1 x l2 :
  length (filter f (l1 ++ x :: l2)) = (length (filter f (l1 ++ l2)) + if f x then 1 else 0)%nat.
Proof. rewrite !filter_app, !app_length. cbn [filter]. destruct (f x); cbn [length]; lia. Qed.

Lemma NoDup_snoc {A} (l : list A) x : NoDup l -> ~ In x l -> NoDup (l ++ [x]).
Proof.
  intros Hnd Hni. apply NoDup_rev in Hnd. rewrite <- (rev_involutive (l ++ [x])), rev_app_distr.
  apply NoDup_rev. constructor; [rewrite <- in_rev; exact Hni|exact Hnd].
Qed.

Lemma NoDup_map_filter {A B} (g : A -> B) (f : A -> bool) l : NoDup (map g l) -> NoDup (map g (filter f l)).
Proof.
  induction l as [|x l IH]; cbn [map filter]; intro H; [constructor|].
  inversion H as [|? ? Hni Hnd]; subst. destruct (f x); [|auto]. cbn [map]. constructor; [|auto].
  intro Hin. apply Hni. apply in_map_iff in Hin. destruct Hin as [y [E Hy]]. apply filter_In in Hy.
  rewrite <- E. apply in_map. apply Hy.
Qed.

Lemma Forall_True {A} (l : list A) : Forall (fun _ => True) l.
Proof. apply Forall_forall. intros. exact I. Qed.

Lemma mapM_const {A B} (f : A -> res B) (m : B) l :
  Forall (fun x => f x = Ok m) l -> mapM f l = Ok (map (fun _ => m) l).
Proof. induction 1 as [|x r H _ IH]; cbn [mapM map]; [reflexivity|]. rewrite H, IH. reflexivity. Qed.

Lemma to_canonical_range x : 0 <= x < two64 -> 0 <= to_canonical x < p.
Proof. unfold to_canonical. intro H. destruct (Z.leb_spec p x); unfold two64, p in *; lia. Qed.

Lemma sat_add64_range a b : 0 <= a -> 0 <= b -> 0 <= sat_add64 a b < two64.
Proof. unfold sat_add64. intros. destruct (Z.ltb_spec (a + b) two64); unfold two64 in *; lia. Qed.

Lemma sat_sub_nonneg a b : 0 <= sat_sub a b.
Proof. unfold sat_sub. destruct (Z.ltb_spec a b); lia. Qed.

Lemma sat_sub_mono now x y : x <= y -> sat_sub now y <= sat_sub now x.
Proof. intro H. unfold sat_sub. destruct (Z.ltb_spec now y), (Z.ltb_spec now x); lia. Qed.

Definition zsum (l : list Z) : Z := fold_right Z.add 0 l.

Lemma sat_fold_min l : forall acc,
  0 <= acc <= two64 - 1 -> Forall (fun v => 0 <= v) l ->
  fold_left sat_add64 l acc = Z.min (acc + zsum l) (two64 - 1).
Proof.
  induction l as [|v r IH]; intros acc Ha Hl; cbn [fold_left zsum fold_right]; [lia|].
  inversion Hl as [|? ? Hv Hr]; subst. fold (zsum r).
  assert (Hs : 0 <= zsum r) by (clear -Hr; induction Hr; cbn [zsum fold_right]; [|unfold zsum in *]; lia).
  rewrite IH; [|pose proof (sat_add64_range acc v); lia|exact Hr].
  unfold sat_add64. destruct (Z.ltb_spec (acc + v) two64); lia.
Qed.

Lemma max_fold_spec l :
  l <> [] -> Forall (fun v => 0 <= v) l ->
  In (fold_left Z.max l 0) l /\ Forall (fun v => v <= fold_left Z.max l 0) l.
Proof.
  assert (H : forall l acc, acc <= fold_left Z.max l acc /\ Forall (fun v => v <= fold_left Z.max l acc) l
                            /\ (fold_left Z.max l acc = acc \/ In (fold_left Z.max l acc) l)).
  { clear l. induction l as [|v r IH]; intro acc; cbn [fold_left]; [split; [lia|auto]|].
    destruct (IH (Z.max acc v)) as (H1 & H2 & H3). split; [lia|]. split; [constructor; [lia|exact H2]|].
    destruct H3 as [H3|H3]; [|right; right; exact H3]. rewrite H3.
    destruct (Z.max_spec acc v) as [[_ E]|[_ E]]; rewrite E; [right; left; reflexivity|left; reflexivity]. }
  intros Hne Hpos. destruct (H l 0) as (_ & Hge & [E|Hin]); split; try assumption.
  (* a maximum of 0 is attained by the head *)
  destruct l as [|v r]; [contradiction|]. left. rewrite E in *. inversion Hge; inversion Hpos; subst. lia.
Qed.

(* every pooled entry with the key of its bucket, buckets in map order, entries in admission order *)
Definition keyed_entries (bs : list (key * bucket)) : list (key * entry) :=
  flat_map (fun kb => map (pair (fst kb)) (b_proofs (snd kb))) bs.

Definition pooled (st : state) : list entry := all_entries (s_buckets st).

(* the pooled proofs of one key, in admission order *)
Definition bucket_entries (k : key) (bs : list (key * bucket)) : list entry :=
  map snd (filter (fun ke => list_eqb (fst ke) k) (keyed_entries bs)).

Lemma keyed_cons k b r : keyed_entries ((k, b) :: r) = map (pair k) (b_proofs b) ++ keyed_entries r.
Proof. reflexivity. Qed.

Lemma all_entries_keyed bs : all_entries bs = map snd (keyed_entries bs).
Proof.
  unfold all_entries. induction bs as [|[k b] r IH]; [reflexivity|].
  rewrite keyed_cons, map_app, map_map, map_id, <- IH. reflexivity.
Qed.

Lemma total_len_keyed bs : total_len bs = zlen (keyed_entries bs).
Proof. unfold total_len. rewrite all_entries_keyed. apply zlen_map. Qed.

Lemma keyed_in bs k e :
  In (k, e) (keyed_entries bs) <-> exists b, In (k, b) bs /\ In e (b_proofs b).
Proof.
  unfold keyed_entries. rewrite in_flat_map. setoid_rewrite in_map_iff. split.
  - intros ([k' b] & Hin & e' & [= <- <-] & He). eauto.
  - intros (b & Hin & He). exists (k, b). eauto.
Qed.

Lemma pooled_in st e : In e (pooled st) <-> exists k, In (k, e) (keyed_entries (s_buckets st)).
Proof.
  unfold pooled. rewrite all_entries_keyed, in_map_iff. split.
  - intros ([k e'] & <- & Hin). exists k. exact Hin.
  - intros [k Hin]. exists (k, e). auto.
Qed.

Lemma bucket_entries_in k e bs : In e (bucket_entries k bs) <-> In (k, e) (keyed_entries bs).
Proof.
  unfold bucket_entries. rewrite in_map_iff. setoid_rewrite filter_In. setoid_rewrite list_eqb_spec. split.
  - intros ([k' e'] & <- & H & <-). exact H.
  - intro H. exists (k, e). auto.
Qed.

Lemma find_bucket_some k bs b : find_bucket k bs = Some b -> In (k, b) bs.
Proof.
  induction bs as [|[k' b'] r IH]; cbn [find_bucket]; [discriminate|].
  destruct (list_eqb k' k) eqn:E.
  - intro H. inversion H; subst. apply list_eqb_spec in E. subst. left. reflexivity.
  - intro H. right. apply IH. exact H.
Qed.

Lemma find_bucket_none k bs : find_bucket k bs = None <-> ~ In k (map fst bs).
Proof.
  induction bs as [|[k' b'] r IH]; cbn [find_bucket map fst In]; [tauto|].
  destruct (list_eqb k' k) eqn:E.
  - apply list_eqb_spec in E. split; [discriminate|tauto].
  - apply list_eqb_false in E. tauto.
Qed.

Lemma find_bucket_nodup k bs b :
  NoDup (map fst bs) -> In (k, b) bs -> find_bucket k bs = Some b.
Proof.
  induction bs as [|[k' b'] r IH]; cbn [find_bucket map fst]; intros Hnd Hin; [contradiction|].
  inversion Hnd as [|? ? Hni Hnd']; subst.
  destruct Hin as [Hin|Hin].
  - inversion Hin; subst. rewrite list_eqb_refl. reflexivity.
  - destruct (list_eqb k' k) eqn:E; [|auto].
    apply list_eqb_spec in E. subst. destruct Hni. exact (in_map fst _ _ Hin).
Qed.

Lemma has_bucket_true k bs : has_bucket k bs = true <-> In k (map fst bs).
Proof.
  unfold has_bucket. destruct (find_bucket k bs) eqn:E.
  - apply find_bucket_some in E. split; [intros _; exact (in_map fst _ _ E)|reflexivity].
  - apply find_bucket_none in E. split; [discriminate|contradiction].
Qed.

Lemma bucket_entries_cons k k' b r :
  bucket_entries k ((k', b) :: r) = (if list_eqb k' k then b_proofs b else []) ++ bucket_entries k r.
Proof.
  unfold bucket_entries. rewrite keyed_cons, filter_app, map_app. f_equal.
  rewrite (filter_map_comm (pair k')). cbn [fst].
  destruct (list_eqb k' k).
  - rewrite filter_true, map_map. apply map_id.
  - rewrite filter_false. reflexivity.
Qed.

Lemma bucket_entries_find k bs :
  NoDup (map fst bs) ->
  bucket_entries k bs = match find_bucket k bs with Some b => b_proofs b | None => [] end.
Proof.
  induction bs as [|[k' b'] r IH]; intro Hnd; [reflexivity|].
  inversion Hnd as [|? ? Hni Hnd']; subst.
  rewrite bucket_entries_cons, (IH Hnd'). cbn [find_bucket].
  destruct (list_eqb k' k) eqn:E; [|reflexivity].
  apply list_eqb_spec in E. subst k'. rewrite (proj2 (find_bucket_none k r) Hni). apply app_nil_r.
Qed.

(* A property of every bucket's list of proofs.  Both invariants are of this form for the part that is
   not about [keyed_entries]: no bucket is empty; admission times are in order. *)
Definition bucketwise (Q : list entry -> Prop) (bs : list (key * bucket)) : Prop :=
  Forall (fun kb => Q (b_proofs (snd kb))) bs.

Lemma add_entry_keyed k e bs :
  exists l1 l2, keyed_entries bs = l1 ++ l2 /\ keyed_entries (add_entry k e bs) = l1 ++ (k, e) :: l2.
Proof.
  induction bs as [|[k' b] r (l1 & l2 & E & E')]; [exists [], []; split; reflexivity|].
  cbn [add_entry]. destruct (list_eqb k' k) eqn:Ek.
  - apply list_eqb_spec in Ek. subst k'. exists (map (pair k) (b_proofs b)), (keyed_entries r).
    split; [reflexivity|]. rewrite !keyed_cons. cbn [b_proofs]. rewrite map_app, <- app_assoc. reflexivity.
  - exists (map (pair k') (b_proofs b) ++ l1), l2. rewrite !keyed_cons, E, E', !app_assoc. split; reflexivity.
Qed.

Lemma add_entry_keyed_in k e bs x :
  In x (keyed_entries (add_entry k e bs)) <-> x = (k, e) \/ In x (keyed_entries bs).
Proof.
  destruct (add_entry_keyed k e bs) as (l1 & l2 & -> & ->). rewrite !in_app_iff. cbn [In]. intuition congruence.
Qed.

Lemma add_entry_keys k e bs :
  map fst (add_entry k e bs) = if has_bucket k bs then map fst bs else map fst bs ++ [k].
Proof.
  unfold has_bucket. induction bs as [|[k' b'] r IH]; cbn [add_entry find_bucket]; [reflexivity|].
  destruct (list_eqb k' k) eqn:E; [reflexivity|].
  cbn [map fst]. rewrite IH. destruct (find_bucket k r); reflexivity.
Qed.

Lemma add_entry_bucketwise (Q : list entry -> Prop) k e bs :
  Q [e] -> (forall l, Q l -> Q (l ++ [e])) -> bucketwise Q bs -> bucketwise Q (add_entry k e bs).
Proof.
  intros Q1 Qs. unfold bucketwise. induction 1 as [|[k' b] r Hb Hr IH]; cbn [add_entry]; [repeat constructor; exact Q1|].
  destruct (list_eqb k' k); constructor; auto. apply Qs. exact Hb.
Qed.

(* What the invariants see of a bucket: its key and its proofs, not the snapshot stamp. *)
Definition content (kb : key * bucket) : key * list entry := (fst kb, b_proofs (snd kb)).

Lemma keyed_content bs : keyed_entries bs = flat_map (fun kp => map (pair (fst kp)) (snd kp)) (map content bs).
Proof. induction bs as [|kb r IH]; [reflexivity|]. cbn [map flat_map]. rewrite <- IH. reflexivity. Qed.

Lemma content_keyed bs bs' : map content bs' = map content bs -> keyed_entries bs' = keyed_entries bs.
Proof. intro E. rewrite !keyed_content, E. reflexivity. Qed.

Lemma keys_content bs : map fst bs = map fst (map content bs).
Proof. rewrite map_map. reflexivity. Qed.

Lemma bucketwise_content Q bs : bucketwise Q bs <-> Forall (fun kp => Q (snd kp)) (map content bs).
Proof. unfold bucketwise. rewrite Forall_map. reflexivity. Qed.

Lemma mark_snapshot_content k t bs : map content (mark_snapshot k t bs) = map content bs.
Proof.
  induction bs as [|[k' b] r IH]; cbn [mark_snapshot]; [reflexivity|].
  destruct (list_eqb k' k); cbn [map]; [reflexivity|]. rewrite IH. reflexivity.
Qed.

(* [retain_buckets] filters the pooled entries: an entry stays if its bucket is not selected or it
   satisfies [keep] *)
Definition kept (sel : key -> bool) (keep : entry -> bool) (ke : key * entry) : bool :=
  negb (sel (fst ke)) || keep (snd ke).

Lemma retain_keyed sel keep bs :
  keyed_entries (retain_buckets sel keep bs) = filter (kept sel keep) (keyed_entries bs).
Proof.
  unfold keyed_entries, retain_buckets. induction bs as [|[k b] r IH]; cbn [flat_map]; [reflexivity|].
  rewrite flat_map_app, filter_app, IH. f_equal. cbn [fst snd].
  rewrite (filter_map_comm (pair k)). unfold kept. cbn [fst snd].
  destruct (sel k); cbn [negb orb].
  - destruct (filter keep (b_proofs b)) eqn:E; cbn [flat_map map]; [reflexivity|].
    cbn [fst snd b_proofs]. rewrite app_nil_r. reflexivity.
  - cbn [flat_map fst snd]. rewrite app_nil_r, filter_true. reflexivity.
Qed.

Lemma removed_keyed sel keep bs :
  removed_entries sel keep bs = map snd (filter (fun ke => negb (kept sel keep ke)) (keyed_entries bs)).
Proof.
  unfold keyed_entries, removed_entries. induction bs as [|[k b] r IH]; cbn [flat_map]; [reflexivity|].
  rewrite filter_app, map_app, IH. f_equal. cbn [fst snd].
  rewrite (filter_map_comm (pair k)), map_map. cbn [snd]. rewrite map_id. unfold kept. cbn [fst snd].
  destruct (sel k); cbn [negb orb]; [reflexivity|]. rewrite filter_false. reflexivity.
Qed.

Definition retain_head (sel : key -> bool) (keep : entry -> bool) (k : key) (b : bucket) : list (key * bucket) :=
  if sel k then match filter keep (b_proofs b) with
                | [] => []
                | ps => [(k, mkBucket ps (b_snap b))]
                end
  else [(k, b)].

Lemma retain_cons sel keep k b r :
  retain_buckets sel keep ((k, b) :: r) = retain_head sel keep k b ++ retain_buckets sel keep r.
Proof. reflexivity. Qed.

Lemma retain_head_cases sel keep k b :
  retain_head sel keep k b = [] \/ exists b', retain_head sel keep k b = [(k, b')] /\ b_proofs b' <> [] \/
  (retain_head sel keep k b = [(k, b)]).
Proof.
  unfold retain_head. destruct (sel k).
  - destruct (filter keep (b_proofs b)) eqn:E; [left; reflexivity|].
    right. eexists. left. split; [reflexivity|]. cbn. discriminate.
  - right. exists b. right. reflexivity.
Qed.

(* a selected bucket survives unless all its entries go *)
Definition survives (sel : key -> bool) (keep : entry -> bool) (kb : key * bucket) : bool :=
  negb (sel (fst kb)) || match filter keep (b_proofs (snd kb)) with [] => false | _ => true end.

Lemma retain_keys sel keep bs :
  map fst (retain_buckets sel keep bs) = map fst (filter (survives sel keep) bs).
Proof.
  induction bs as [|[k b] r IH]; [reflexivity|].
  rewrite retain_cons, map_app, IH. unfold retain_head, survives. cbn [filter fst snd].
  destruct (sel k); [destruct (filter keep (b_proofs b))|]; reflexivity.
Qed.

Lemma retain_bucketwise (Q : list entry -> Prop) sel keep bs :
  (forall l, Q l -> filter keep l <> [] -> Q (filter keep l)) ->
  bucketwise Q bs -> bucketwise Q (retain_buckets sel keep bs).
Proof.
  intros HQ H. apply Forall_flat_map. eapply Forall_impl; [|exact H]. intros [k b] Hb. cbn [fst snd] in *.
  destruct (sel k); [|repeat constructor; exact Hb].
  destruct (filter keep (b_proofs b)) eqn:E; [constructor|]. rewrite <- E. repeat constructor.
  apply HQ; [exact Hb|rewrite E; discriminate].
Qed.

Lemma idx_lookup_remove_all ns n idx :
  idx_lookup n (idx_remove_all ns idx) = if mem n ns then None else idx_lookup n idx.
Proof.
  unfold idx_remove_all. induction idx as [|[n' k'] r IH]; cbn [filter idx_lookup fst]; [destruct (mem n ns); reflexivity|].
  destruct (list_eqb n' n) eqn:E.
  - apply list_eqb_spec in E. subst n'.
    destruct (mem n ns); cbn [negb idx_lookup]; [exact IH|rewrite list_eqb_refl; reflexivity].
  - destruct (mem n' ns); cbn [negb idx_lookup]; rewrite ?E; exact IH.
Qed.

Lemma idx_lookup_insert n' k n idx :
  idx_lookup n (idx_insert n' k idx) = if list_eqb n' n then Some k else idx_lookup n idx.
Proof.
  unfold idx_insert. cbn [idx_lookup]. destruct (list_eqb n' n) eqn:E; [reflexivity|].
  rewrite idx_lookup_remove_all. cbn [mem existsb]. rewrite list_eqb_sym, E. reflexivity.
Qed.

Lemma idx_lookup_insert_all ns k n idx :
  idx_lookup n (idx_insert_all ns k idx) = if mem n ns then Some k else idx_lookup n idx.
Proof.
  unfold idx_insert_all. revert idx. induction ns as [|n' r IH]; intro idx; cbn [fold_left]; [reflexivity|].
  rewrite IH. cbn [mem existsb]. fold (mem n r). rewrite idx_lookup_insert, (list_eqb_sym n n').
  destruct (mem n r); [rewrite orb_true_r; reflexivity|]. rewrite orb_false_r. reflexivity.
Qed.

Lemma idx_nodup_insert_all ns k idx : NoDup (map fst idx) -> NoDup (map fst (idx_insert_all ns k idx)).
Proof.
  unfold idx_insert_all. revert idx. induction ns as [|n r IH]; intros idx H; cbn [fold_left]; [exact H|].
  apply IH. unfold idx_insert. cbn [map fst]. constructor; [|apply NoDup_map_filter; exact H].
  rewrite in_map_iff. setoid_rewrite filter_In. intros ([n' k'] & <- & _ & Hf). cbn [fst mem existsb] in Hf.
  rewrite list_eqb_refl in Hf. discriminate.
Qed.

Lemma idx_mem_false n idx : idx_mem n idx = false <-> idx_lookup n idx = None.
Proof. unfold idx_mem. destruct (idx_lookup n idx); split; congruence. Qed.

(* what ProofPool::new establishes *)
Record wf_cfg (cfg : config) : Prop := {
  wf_batch : 1 <= c_batch cfg <= MAX_PROOF_COUNT;
  wf_leaves : 1 <= c_leaves cfg <= MAX_PROOF_COUNT;
  wf_max_proofs : c_batch cfg <= c_max_proofs cfg;
  wf_max_buckets : 0 < c_max_buckets cfg;
  wf_budget : 0 < c_budget cfg;
  wf_window : 0 < c_window cfg;
  wf_pi_len : c_pi_len cfg = pi_len_of (c_leaves cfg) }.

(* public inputs are u64 values *)
Definition wf_proof (pr : proof) : Prop := Forall (fun x => 0 <= x < two64) (p_pis pr).
Definition wf_op (o : op) : Prop := match o with Push pr => wf_proof pr | _ => True end.

(* The readers fail in one way only: the rendering of an out-of-range slice index. *)
Definition panics_only {A} (r : res A) : Prop := forall c, r = Err c -> c = PANIC.

Lemma panics_ok {A} (a : A) : panics_only (Ok a).
Proof. intros c H. discriminate H. Qed.

Lemma panics_bind {A B} (m : res A) (f : A -> res B) :
  panics_only m -> (forall a, panics_only (f a)) -> panics_only (rbind m f).
Proof. intros Hm Hf c. destruct m as [a|c']; cbn [rbind]; [exact (Hf a c)|]. intro E. apply Hm. congruence. Qed.

Lemma getc_panics pis i : panics_only (getc pis i).
Proof. unfold getc. intro c. destruct (nth_error pis i); congruence. Qed.

Lemma slice4_panics pis a : panics_only (slice4 pis a).
Proof. unfold slice4. intro c. destruct (a + 4 <=? length pis)%nat; congruence. Qed.

Lemma read_nulls_panics pis count : forall start, panics_only (read_nulls pis start count).
Proof.
  induction count as [|n IH]; intro start; cbn [read_nulls]; [apply panics_ok|].
  apply panics_bind; [apply slice4_panics|intro d]. apply panics_bind; [apply IH|intro r; apply panics_ok].
Qed.

Lemma read_volume_panics pis count : forall start acc, panics_only (read_volume pis start count acc).
Proof.
  induction count as [|n IH]; intros start acc; cbn [read_volume]; [apply panics_ok|].
  apply panics_bind; [apply getc_panics|intro v; apply IH].
Qed.

Lemma read_meta_panics pis : panics_only (read_meta pis).
Proof.
  unfold read_meta. apply panics_bind; [apply slice4_panics|intro bh].
  apply panics_bind; [apply getc_panics|intro a]. apply panics_bind; [apply getc_panics|intro f; apply panics_ok].
Qed.

Lemma parse_err_codes cfg pr c : parse_metadata cfg pr = Err c -> c = E_LEN \/ c = PANIC.
Proof.
  unfold parse_metadata. destruct (zlen (p_pis pr) =? c_pi_len cfg); cbn [guard rbind]; [|left; congruence].
  intro H. right. revert c H. apply panics_bind; [apply read_meta_panics|intro m].
  apply panics_bind; [apply read_nulls_panics|intro nulls].
  apply panics_bind; [apply read_volume_panics|intro vol; apply panics_ok].
Qed.

Lemma getc_ok pis i : (i < length pis)%nat -> exists v, getc pis i = Ok v.
Proof.
  intro H. unfold getc. destruct (nth_error pis i) eqn:E; [eexists; reflexivity|].
  apply nth_error_None in E. lia.
Qed.

Lemma getc_range pis i v : Forall (fun x => 0 <= x < two64) pis -> getc pis i = Ok v -> 0 <= v < p.
Proof.
  intros Hw. unfold getc. destruct (nth_error pis i) eqn:E; [|discriminate].
  intro H. inversion H; subst. apply to_canonical_range.
  apply nth_error_In in E. rewrite Forall_forall in Hw. apply Hw. exact E.
Qed.

Lemma slice4_ok_iff pis a d :
  slice4 pis a = Ok d <-> (a + 4 <= length pis)%nat /\ d = map to_canonical (firstn 4 (skipn a pis)).
Proof.
  unfold slice4. destruct (Nat.leb_spec (a + 4) (length pis)); split.
  - intro E. split; [assumption|congruence].
  - intros [_ ->]. reflexivity.
  - discriminate.
  - intros [H' _]. lia.
Qed.

Lemma slice4_ok pis a : (a + 4 <= length pis)%nat -> slice4 pis a = Ok (map to_canonical (firstn 4 (skipn a pis))).
Proof. intro H. apply slice4_ok_iff. auto. Qed.

Lemma slice4_len pis a d : slice4 pis a = Ok d -> length d = 4%nat.
Proof. intro H. apply slice4_ok_iff in H. destruct H as [H ->]. rewrite map_length, firstn_length, skipn_length. lia. Qed.

Lemma read_nulls_ok pis count : forall start,
  (start + 4 * count <= length pis)%nat -> exists l, read_nulls pis start count = Ok l.
Proof.
  induction count as [|c IH]; intros start H; cbn [read_nulls]; [eexists; reflexivity|].
  rewrite slice4_ok by lia. cbn [rbind].
  destruct (IH (start + 4)%nat) as [l Hl]; [lia|]. rewrite Hl. eexists. reflexivity.
Qed.

Lemma read_volume_ok pis count : forall start acc,
  (start + SLOT * count <= length pis)%nat -> exists v, read_volume pis start count acc = Ok v.
Proof.
  assert (HS : SLOT = 5%nat) by reflexivity.
  induction count as [|c IH]; intros start acc H; cbn [read_volume]; [eexists; reflexivity|].
  destruct (getc_ok pis start) as [v Hv]; [lia|]. rewrite Hv. apply IH. lia.
Qed.

Lemma read_volume_range pis count : forall start acc v,
  Forall (fun x => 0 <= x < two64) pis -> 0 <= acc < two64 ->
  read_volume pis start count acc = Ok v -> 0 <= v < two64.
Proof.
  induction count as [|c IH]; intros start acc v Hw Ha; cbn [read_volume].
  - intro E. inversion E; subst. exact Ha.
  - destruct (getc pis start) as [x|] eqn:Ex; cbn [rbind]; [|discriminate].
    apply IH; [exact Hw|]. apply sat_add64_range; [lia|]. pose proof (getc_range _ _ _ Hw Ex). lia.
Qed.

Lemma read_meta_ok_iff pis bh a f :
  read_meta pis = Ok (bh, a, f) <->
  slice4 pis OFF_BH = Ok bh /\ getc pis OFF_ASSET = Ok a /\ getc pis OFF_FEE = Ok f.
Proof.
  unfold read_meta. repeat setoid_rewrite rbind_ok_iff. split.
  - intros (bh' & Hb & a' & Ha & f' & Hf & [= <- <- <-]). auto.
  - intros (Hb & Ha & Hf). eauto 9.
Qed.

Lemma parse_metadata_ok_iff cfg pr k nulls vol :
  let n := Z.to_nat (c_leaves cfg) in
  parse_metadata cfg pr = Ok (k, nulls, vol) <->
  zlen (p_pis pr) = c_pi_len cfg /\
  exists m, read_meta (p_pis pr) = Ok m /\ k = mk_key m
            /\ read_nulls (p_pis pr) (nullifiers_start n) n = Ok nulls /\ read_volume (p_pis pr) HEADER (n * 2) 0 = Ok vol.
Proof.
  unfold parse_metadata. cbv zeta. rewrite guard_bind_ok_iff, Z.eqb_eq. apply and_iff_compat_l. split.
  - intro H. apply rbind_ok_iff in H. destruct H as (m & Hm & H). apply rbind_ok_iff in H.
    destruct H as (nl & Hn & H). apply rbind_ok_iff in H. destruct H as (v & Hv & H). inversion H; subst. eauto.
  - intros (m & -> & -> & -> & ->). reflexivity.
Qed.

Lemma parse_ok_len cfg pr :
  wf_cfg cfg -> zlen (p_pis pr) = c_pi_len cfg -> exists r, parse_metadata cfg pr = Ok r.
Proof.
  intros W E. destruct W as [_ [Hl1 Hl2] _ _ _ _ Hpl].
  assert (Hlen : length (p_pis pr) = (21 * Z.to_nat (c_leaves cfg) + 8)%nat).
  { unfold zlen in E. rewrite Hpl in E. unfold pi_len_of, LEAF_PI_LEN in E. lia. }
  set (n := Z.to_nat (c_leaves cfg)) in *.
  assert (Hn : (1 <= n)%nat) by (unfold n; lia).
  assert (HB : OFF_BH = 3%nat) by reflexivity. assert (HA : OFF_ASSET = 1%nat) by reflexivity.
  assert (HF : OFF_FEE = 2%nat) by reflexivity. assert (HH : HEADER = 8%nat) by reflexivity.
  assert (HS : SLOT = 5%nat) by reflexivity.
  unfold parse_metadata, read_meta. cbv zeta. fold n. rewrite guard_bind_true by (apply Z.eqb_eq; exact E).
  rewrite slice4_ok by lia.
  destruct (getc_ok (p_pis pr) OFF_ASSET) as [a ->]; [lia|].
  destruct (getc_ok (p_pis pr) OFF_FEE) as [f ->]; [lia|].
  destruct (read_nulls_ok (p_pis pr) n (nullifiers_start n)) as [l ->]; [unfold nullifiers_start; lia|].
  destruct (read_volume_ok (p_pis pr) (n * 2) HEADER 0) as [v ->]; [lia|]. eexists. reflexivity.
Qed.

Lemma parse_vol_range cfg pr k nulls vol :
  wf_proof pr -> parse_metadata cfg pr = Ok (k, nulls, vol) -> 0 <= vol < two64.
Proof.
  intros Hw H. apply parse_metadata_ok_iff in H. destruct H as (_ & m & _ & _ & _ & Hv).
  eapply read_volume_range; [exact Hw| |exact Hv]. unfold two64. lia.
Qed.

(* the key of a parsed proof: four block-hash limbs, then asset and fee; the dummy sentinel is "the
   four limbs are zero (as field elements)" *)
Lemma parse_key cfg pr k nulls vol :
  parse_metadata cfg pr = Ok (k, nulls, vol) ->
  exists bh a f, bh = map to_canonical (firstn 4 (skipn OFF_BH (p_pis pr))) /\ read_meta (p_pis pr) = Ok (bh, a, f)
    /\ k = bh ++ [a; f] /\ length bh = 4%nat /\ is_dummy k = list_eqb bh ZERO_DIGEST.
Proof.
  intro H. apply parse_metadata_ok_iff in H. destruct H as (_ & [[bh a] f] & Hm & -> & _). exists bh, a, f.
  pose proof (proj1 (read_meta_ok_iff _ _ _ _) Hm) as (Hb & _). pose proof (slice4_len _ _ _ Hb) as Hl.
  apply slice4_ok_iff in Hb. repeat split; [apply Hb|exact Hm|exact Hl|].
  unfold is_dummy, mk_key. rewrite (firstn_exact _ _ 4 Hl). reflexivity.
Qed.

Definition entry_ok (cfg : config) (ke : key * entry) : Prop :=
  parse_metadata cfg (e_proof (snd ke)) = Ok (fst ke, e_nulls (snd ke), e_vol (snd ke))
  /\ p_ver (e_proof (snd ke)) = true
  /\ is_dummy (fst ke) = false
  /\ 0 <= e_vol (snd ke) < two64.

Definition has_null (n : digest) (e : entry) : bool := mem n (e_nulls e).
(* in how many pooled proofs does nullifier [n] occur *)
Definition null_count (n : digest) (bs : list (key * bucket)) : nat :=
  length (filter (has_null n) (all_entries bs)).

Record Inv (cfg : config) (st : state) : Prop := {
  (* the bucket map is a map *)
  inv_keys : NoDup (map fst (s_buckets st));
  (* no bucket is empty *)
  inv_nonempty : Forall (fun kb => b_proofs (snd kb) <> []) (s_buckets st);
  (* every proof sits in the bucket of its own key (and was admitted: it parses to exactly the recorded
     metadata, verifies, is not the dummy sentinel) *)
  inv_entry : Forall (entry_ok cfg) (keyed_entries (s_buckets st));
  (* the index holds exactly the nullifiers of the pooled proofs, each mapped to its proof's bucket *)
  inv_index : forall n k, idx_lookup n (s_index st) = Some k <->
                          exists e, In (k, e) (keyed_entries (s_buckets st)) /\ In n (e_nulls e);
  inv_index_nodup : NoDup (map fst (s_index st));
  (* no nullifier occurs in two pooled proofs *)
  inv_unshared : forall n, (null_count n (s_buckets st) <= 1)%nat;
  (* limits *)
  inv_len : total_len (s_buckets st) <= c_max_proofs cfg;
  inv_nbuckets : zlen (s_buckets st) <= c_max_buckets cfg;
  inv_verifs : 0 <= s_verifs st <= c_budget cfg }.

Lemma inv_entry_in cfg st k e : Inv cfg st -> In (k, e) (keyed_entries (s_buckets st)) -> entry_ok cfg (k, e).
Proof. intro Hi. exact (proj1 (Forall_forall _ _) (inv_entry _ _ Hi) (k, e)). Qed.

Lemma inv_nonempty_in cfg st k b : Inv cfg st -> In (k, b) (s_buckets st) -> b_proofs b <> [].
Proof. intro Hi. exact (proj1 (Forall_forall _ _) (inv_nonempty _ _ Hi) (k, b)). Qed.

Lemma null_count_keyed n bs :
  null_count n bs = length (filter (fun ke => has_null n (snd ke)) (keyed_entries bs)).
Proof. unfold null_count. rewrite all_entries_keyed, filter_map_comm, map_length. reflexivity. Qed.

Lemma null_count_pos n bs k e :
  In (k, e) (keyed_entries bs) -> In n (e_nulls e) -> (1 <= null_count n bs)%nat.
Proof.
  intros Hin Hn. rewrite null_count_keyed.
  assert (H : In (k, e) (filter (fun ke => has_null n (snd ke)) (keyed_entries bs))).
  { apply filter_In. split; [exact Hin|]. apply mem_spec. exact Hn. }
  destruct (filter _ _); [contradiction|cbn [length]; lia].
Qed.

Lemma null_count_zero n bs : (forall e, In e (all_entries bs) -> ~ In n (e_nulls e)) -> null_count n bs = 0%nat.
Proof.
  intro H. unfold null_count. rewrite (filter_ext_in _ (fun _ => false)), filter_false; [reflexivity|].
  intros e He. apply mem_false, H, He.
Qed.

(* no nullifier in two pooled proofs, pairwise form (positions = elements of the keyed list) *)
Lemma unshared_pairs n bs ke1 ke2 :
  (null_count n bs <= 1)%nat -> In ke1 (keyed_entries bs) -> In ke2 (keyed_entries bs) ->
  ke1 <> ke2 -> In n (e_nulls (snd ke1)) -> ~ In n (e_nulls (snd ke2)).
Proof.
  intros Hu H1 H2 Hne Hn1 Hn2. rewrite null_count_keyed in Hu.
  assert (2 <= length (filter (fun ke => has_null n (snd ke)) (keyed_entries bs)))%nat; [|lia].
  apply (two_members _ ke1 ke2); [| |exact Hne]; apply filter_In; split; try assumption; apply mem_spec; assumption.
Qed.

Lemma index_none_iff cfg st n :
  Inv cfg st -> (idx_lookup n (s_index st) = None <-> forall e, In e (pooled st) -> ~ In n (e_nulls e)).
Proof.
  intro Hi. split.
  - intros Hn e He Hin. apply pooled_in in He. destruct He as [k Hk].
    assert (idx_lookup n (s_index st) = Some k) by (apply (inv_index _ _ Hi); eauto). congruence.
  - intro H. destruct (idx_lookup n (s_index st)) as [k|] eqn:E; [|reflexivity].
    apply (inv_index _ _ Hi) in E. destruct E as [e [Hk Hn]]. destruct (H e); [|exact Hn].
    apply pooled_in. exists k. exact Hk.
Qed.

Lemma has_bucket_iff_pooled cfg st k :
  Inv cfg st -> (has_bucket k (s_buckets st) = true <-> exists e, In (k, e) (keyed_entries (s_buckets st))).
Proof.
  intro Hi. rewrite has_bucket_true, in_map_iff. setoid_rewrite keyed_in. split.
  - intros ([k' b] & <- & Hin). pose proof (inv_nonempty_in cfg st k' b Hi Hin) as Hne.
    destruct (b_proofs b) as [|e r] eqn:Eb; [contradiction|]. exists e, b. rewrite Eb. split; [exact Hin|left; reflexivity].
  - intros (e & b & Hin & _). exists (k, b). auto.
Qed.

(* the invariant reads the bucket map through its contents, and does not read the window start or the clock *)
Lemma inv_frame cfg st st' :
  map content (s_buckets st') = map content (s_buckets st) -> s_index st' = s_index st ->
  0 <= s_verifs st' <= c_budget cfg -> Inv cfg st -> Inv cfg st'.
Proof.
  intros Ec Ei Hv Hi. pose proof (content_keyed _ _ Ec) as Ek.
  constructor.
  - rewrite keys_content, Ec, <- keys_content. apply Hi.
  - apply (bucketwise_content (fun l => l <> [])). rewrite Ec. apply (bucketwise_content (fun l => l <> [])), Hi.
  - rewrite Ek. apply Hi.
  - rewrite Ek, Ei. apply Hi.
  - rewrite Ei. apply Hi.
  - intro n. rewrite null_count_keyed, Ek, <- null_count_keyed. apply Hi.
  - rewrite total_len_keyed, Ek, <- total_len_keyed. apply Hi.
  - rewrite <- (zlen_map content), Ec, zlen_map. apply Hi.
  - exact Hv.
Qed.

Lemma inv_set_budget cfg st ws v : Inv cfg st -> 0 <= v <= c_budget cfg -> Inv cfg (set_budget st ws v).
Proof. intros Hi Hv. exact (inv_frame cfg st (set_budget st ws v) eq_refl eq_refl Hv Hi). Qed.

Definition bucket_room (cfg : config) (st : state) (k : key) : Prop :=
  has_bucket k (s_buckets st) = true \/ zlen (s_buckets st) < c_max_buckets cfg.
Definition fresh_nulls (st : state) (nulls : list digest) : Prop :=
  forall n, In n nulls -> idx_lookup n (s_index st) = None.

Lemma inv_add cfg st k e :
  Inv cfg st -> entry_ok cfg (k, e) -> fresh_nulls st (e_nulls e) ->
  total_len (s_buckets st) < c_max_proofs cfg -> bucket_room cfg st k ->
  Inv cfg (set_buckets st (add_entry k e (s_buckets st)) (idx_insert_all (e_nulls e) k (s_index st))).
Proof.
  intros Hi Hok Hfresh Hlen Hroom.
  destruct (add_entry_keyed k e (s_buckets st)) as (l1 & l2 & E & E').
  constructor; cbn [set_buckets s_buckets s_index s_verifs].
  - rewrite add_entry_keys. destruct (has_bucket k (s_buckets st)) eqn:Hb; [apply Hi|].
    apply NoDup_snoc; [apply Hi|]. rewrite <- has_bucket_true. congruence.
  - apply (add_entry_bucketwise (fun l => l <> [])); [discriminate|intros [|x l] _; discriminate|apply Hi].
  - apply Forall_forall. intros x Hx. apply add_entry_keyed_in in Hx. destruct Hx as [->|Hx]; [exact Hok|].
    destruct x. exact (inv_entry_in cfg st _ _ Hi Hx).
  - intros n k'. rewrite idx_lookup_insert_all. setoid_rewrite add_entry_keyed_in.
    destruct (mem n (e_nulls e)) eqn:Em.
    + apply mem_spec in Em. split; [intros [= <-]; eauto|]. intros (e' & [[= -> ->]|Hin] & Hn); [reflexivity|].
      assert (Hl : idx_lookup n (s_index st) = Some k') by (apply (inv_index _ _ Hi); eauto).
      rewrite (Hfresh n Em) in Hl. discriminate.
    + apply mem_false in Em. rewrite (inv_index _ _ Hi). split; intros (e' & Hin & Hn); exists e'; [auto|].
      destruct Hin as [[= -> ->]|Hin]; [contradiction|auto].
  - apply idx_nodup_insert_all, Hi.
  - intro n. pose proof (inv_unshared _ _ Hi n) as Hu.
    rewrite null_count_keyed, E', insert_filter_length, <- E, <- null_count_keyed. cbn [snd]. unfold has_null.
    destruct (mem n (e_nulls e)) eqn:Em; [|lia]. rewrite null_count_zero; [lia|].
    apply (index_none_iff cfg st n Hi), Hfresh, mem_spec, Em.
  - rewrite total_len_keyed in *. rewrite E', zlen_app, zlen_cons. rewrite E, zlen_app in Hlen. lia.
  - rewrite <- (zlen_map fst), add_entry_keys. pose proof (inv_nbuckets _ _ Hi) as Hn. unfold bucket_room in Hroom.
    destruct (has_bucket k (s_buckets st)); rewrite ?zlen_app, zlen_map; [exact Hn|].
    destruct Hroom; [discriminate|]. cbn. lia.
  - apply Hi.
Qed.

Lemma removed_nulls_in sel keep bs n :
  In n (flat_map e_nulls (removed_entries sel keep bs)) <->
  exists ke, In ke (keyed_entries bs) /\ kept sel keep ke = false /\ In n (e_nulls (snd ke)).
Proof.
  rewrite removed_keyed, flat_map_concat_map, map_map, <- flat_map_concat_map, in_flat_map.
  setoid_rewrite filter_In. setoid_rewrite negb_true_iff. split; intros (ke & H); exists ke; tauto.
Qed.

Lemma inv_retain cfg st sel keep :
  Inv cfg st -> Inv cfg (fst (retain_state sel keep st)).
Proof.
  intro Hi. unfold retain_state. cbn [fst]. constructor; cbn [set_buckets s_buckets s_index s_verifs].
  - rewrite retain_keys. apply NoDup_map_filter, Hi.
  - apply (retain_bucketwise (fun l => l <> [])); [intros l _ H; exact H|apply Hi].
  - rewrite retain_keyed. eapply incl_Forall; [apply incl_filter|apply Hi].
  - intros n k. rewrite idx_lookup_remove_all, retain_keyed. setoid_rewrite filter_In.
    destruct (mem n (flat_map e_nulls (removed_entries sel keep (s_buckets st)))) eqn:Em.
    + (* [n] belongs to a removed entry, so to no other one *)
      apply mem_spec, removed_nulls_in in Em. destruct Em as (ke' & Hin' & Hk' & Hn').
      split; [discriminate|]. intros (e & [Hin Hk] & Hn).
      destruct (unshared_pairs n _ (k, e) ke' (inv_unshared _ _ Hi n) Hin Hin'); [congruence|exact Hn|exact Hn'].
    + apply mem_false in Em. rewrite (inv_index _ _ Hi). split; intros (e & Hin & Hn); exists e; [|tauto].
      split; [split; [exact Hin|]|exact Hn]. apply not_false_iff_true. intro Hk. apply Em, removed_nulls_in. exists (k, e). auto.
  - apply NoDup_map_filter, Hi.
  - intro n. rewrite null_count_keyed, retain_keyed. pose proof (inv_unshared _ _ Hi n) as Hu. rewrite null_count_keyed in Hu.
    pose proof (filter_filter_length_le (fun ke => has_null n (snd ke)) (kept sel keep) (keyed_entries (s_buckets st))). lia.
  - pose proof (inv_len _ _ Hi) as Hl. rewrite total_len_keyed in *. rewrite retain_keyed.
    pose proof (filter_length_le (kept sel keep) (keyed_entries (s_buckets st))). unfold zlen in *. lia.
  - pose proof (inv_nbuckets _ _ Hi) as Hn. rewrite <- (zlen_map fst), retain_keys, zlen_map.
    pose proof (filter_length_le (survives sel keep) (s_buckets st)). unfold zlen in *. lia.
  - apply Hi.
Qed.

Definition restarts (cfg : config) (st : state) : bool :=
  sat_sub (s_now st) (s_win_start st) >=? c_window cfg.
(* the attempt counter as the budget check of a push sees it *)
Definition window_verifs (cfg : config) (st : state) : Z :=
  if restarts cfg st then 0 else s_verifs st.
Definition window_start (cfg : config) (st : state) : Z :=
  if restarts cfg st then s_now st else s_win_start st.
Definition windowed (cfg : config) (st : state) : state :=
  set_budget st (window_start cfg st) (window_verifs cfg st).
Definition charged (cfg : config) (st : state) : state :=
  set_budget st (window_start cfg st) (window_verifs cfg st + 1).

Lemma set_budget_id st : set_budget st (s_win_start st) (s_verifs st) = st.
Proof. destruct st. reflexivity. Qed.

Lemma windowed_eq cfg st : windowed cfg st = if restarts cfg st then set_budget st (s_now st) 0 else st.
Proof.
  unfold windowed, window_start, window_verifs. destruct (restarts cfg st); [reflexivity|apply set_budget_id].
Qed.

Lemma window_verifs_range cfg st : 0 <= s_verifs st <= c_budget cfg -> 0 <= window_verifs cfg st <= c_budget cfg.
Proof. unfold window_verifs. destruct (restarts cfg st); lia. Qed.

Lemma bucket_room_spec cfg st k :
  negb (has_bucket k (s_buckets st)) && (zlen (s_buckets st) >=? c_max_buckets cfg) = false <-> bucket_room cfg st k.
Proof. unfold bucket_room. rewrite andb_false_iff, negb_false_iff, Z.geb_leb, Z.leb_gt. reflexivity. Qed.

Lemma fresh_nulls_spec st nulls :
  existsb (fun n => idx_mem n (s_index st)) nulls = false <-> fresh_nulls st nulls.
Proof.
  rewrite <- not_true_iff_false, existsb_exists. split.
  - intros H n Hn. apply idx_mem_false, not_true_iff_false. intro E. apply H. eauto.
  - intros H (n & Hn & E). apply H, idx_mem_false in Hn. congruence.
Qed.

(* The checks of a push in their order.  Before the budget is consulted: pool full, public inputs that do
   not parse, the dummy sentinel. *)
Definition early_reject (cfg : config) (st : state) (pr : proof) (c : Z) : Prop :=
  c_max_proofs cfg <= total_len (s_buckets st) /\ c = E_FULL
  \/ total_len (s_buckets st) < c_max_proofs cfg /\
     (parse_metadata cfg pr = Err c
      \/ exists k nulls vol, parse_metadata cfg pr = Ok (k, nulls, vol) /\ is_dummy k = true /\ c = E_DUMMY).
Definition passes_early (cfg : config) (st : state) (pr : proof) (k : key) (nulls : list digest) (vol : Z) : Prop :=
  total_len (s_buckets st) < c_max_proofs cfg /\ parse_metadata cfg pr = Ok (k, nulls, vol) /\ is_dummy k = false.
(* After the attempt was charged: the verifier's answer, then room for the bucket, then the nullifiers. *)
Definition late_reject (cfg : config) (st : state) (pr : proof) (k : key) (nulls : list digest) (c : Z) : Prop :=
  p_ver pr = false /\ c = E_VERIFY
  \/ p_ver pr = true /\
     (~ bucket_room cfg st k /\ c = E_BUCKETS
      \/ bucket_room cfg st k /\ ~ fresh_nulls st nulls /\ c = E_DUP).

(* What a push does: the state after it, its return value, whether the verifier was called, whether the
   window was restarted. *)
Inductive push_outcome (cfg : config) (st : state) (pr : proof) : state -> ret -> bool -> bool -> Prop :=
| push_early c :
    early_reject cfg st pr c ->
    push_outcome cfg st pr st (RPush (Err c)) false false
| push_exhausted k nulls vol :
    passes_early cfg st pr k nulls vol -> c_budget cfg <= window_verifs cfg st ->
    push_outcome cfg st pr (windowed cfg st) (RPush (Err E_BUDGET)) false (restarts cfg st)
| push_late c k nulls vol :
    passes_early cfg st pr k nulls vol -> window_verifs cfg st < c_budget cfg -> late_reject cfg st pr k nulls c ->
    push_outcome cfg st pr (charged cfg st) (RPush (Err c)) true (restarts cfg st)
| push_admitted k nulls vol :
    passes_early cfg st pr k nulls vol -> window_verifs cfg st < c_budget cfg ->
    p_ver pr = true -> bucket_room cfg st k -> fresh_nulls st nulls ->
    push_outcome cfg st pr
      (set_buckets (charged cfg st) (add_entry k (mkEntry pr nulls vol (s_now st)) (s_buckets st))
                   (idx_insert_all nulls k (s_index st)))
      (RPush (Ok k)) true (restarts cfg st).

Lemma push_spec cfg st pr :
  push_outcome cfg st pr (fst (push cfg st pr)) (o_ret (snd (push cfg st pr)))
               (o_verified (snd (push cfg st pr))) (o_restarted (snd (push cfg st pr))).
Proof.
  unfold push. cbv zeta. fold (restarts cfg st). rewrite <- windowed_eq.
  destruct (Z.geb_spec (total_len (s_buckets st)) (c_max_proofs cfg)) as [Hlen|Hlen].
  { apply (push_early cfg st pr E_FULL). left. split; [lia|reflexivity]. }
  destruct (parse_metadata cfg pr) as [[[k nulls] vol]|c] eqn:Ep.
  2:{ apply (push_early cfg st pr c). right. auto. }
  destruct (is_dummy k) eqn:Ed.
  { apply (push_early cfg st pr E_DUMMY). right. split; [exact Hlen|]. right. exists k, nulls, vol. auto. }
  assert (He : passes_early cfg st pr k nulls vol) by (repeat split; assumption).
  change (s_verifs (windowed cfg st)) with (window_verifs cfg st).
  change (set_budget (windowed cfg st) _ _) with (charged cfg st).
  change (s_buckets (charged cfg st)) with (s_buckets st). change (s_index (charged cfg st)) with (s_index st).
  change (s_now (charged cfg st)) with (s_now st).
  destruct (Z.geb_spec (window_verifs cfg st) (c_budget cfg)) as [Hb|Hb].
  { exact (push_exhausted cfg st pr k nulls vol He Hb). }
  destruct (p_ver pr) eqn:Ev; cbn [negb].
  2:{ apply (push_late cfg st pr E_VERIFY k nulls vol He Hb). left. auto. }
  destruct (negb (has_bucket k _) && _) eqn:Ebk.
  { apply (push_late cfg st pr E_BUCKETS k nulls vol He Hb). right. split; [exact Ev|]. left.
    split; [|reflexivity]. rewrite <- bucket_room_spec. congruence. }
  apply bucket_room_spec in Ebk.
  destruct (existsb _ nulls) eqn:Edup.
  { apply (push_late cfg st pr E_DUP k nulls vol He Hb). right. split; [exact Ev|]. right.
    split; [exact Ebk|]. split; [|reflexivity]. rewrite <- fresh_nulls_spec. congruence. }
  apply fresh_nulls_spec in Edup. exact (push_admitted cfg st pr k nulls vol He Hb Ev Ebk Edup).
Qed.

Lemma early_reject_codes cfg st pr c :
  early_reject cfg st pr c -> c = E_FULL \/ c = E_LEN \/ c = PANIC \/ c = E_DUMMY.
Proof.
  intros [[_ H]|[_ [H|(k & nulls & vol & _ & _ & H)]]]; auto.
  apply parse_err_codes in H. destruct H; auto.
Qed.

Lemma early_reject_passes cfg st pr c k nulls vol :
  early_reject cfg st pr c -> passes_early cfg st pr k nulls vol -> False.
Proof. intros [[H _]|[_ [H|(k' & n' & v' & H & Hd & _)]]] (Hl & Hp & Hd'); [lia|congruence|congruence]. Qed.

Lemma late_reject_codes cfg st pr k nulls c :
  late_reject cfg st pr k nulls c -> c = E_VERIFY \/ c = E_BUCKETS \/ c = E_DUP.
Proof. intros [[_ H]|[_ [[_ H]|[_ [_ H]]]]]; auto. Qed.

Lemma inv_push cfg st pr : Inv cfg st -> wf_proof pr -> Inv cfg (fst (push cfg st pr)).
Proof.
  intros Hi Hw. pose proof (window_verifs_range cfg st (inv_verifs _ _ Hi)) as Hwv.
  destruct (push_spec cfg st pr) as [c _|k nulls vol _ _|c k nulls vol _ Hb _|k nulls vol (Hlen & Hp & Hd) Hb Hv Hroom Hfresh].
  - exact Hi.
  - apply inv_set_budget; assumption.
  - apply inv_set_budget; [exact Hi|lia].
  - apply (inv_add cfg (charged cfg st) k (mkEntry pr nulls vol (s_now st))).
    + apply inv_set_budget; [exact Hi|lia].
    + split; [exact Hp|]. split; [exact Hv|]. split; [exact Hd|]. exact (parse_vol_range cfg pr k nulls vol Hw Hp).
    + exact Hfresh.
    + exact Hlen.
    + exact Hroom.
Qed.

Lemma affected_in S idx k : In k (affected_keys S idx) <-> exists n, In n S /\ idx_lookup n idx = Some k.
Proof.
  unfold affected_keys. rewrite in_flat_map. split.
  - intros [n [Hn Hk]]. exists n. split; [exact Hn|]. destruct (idx_lookup n idx); [|contradiction].
    destruct Hk as [Hk|[]]. subst. reflexivity.
  - intros [n [Hn Hk]]. exists n. split; [exact Hn|]. rewrite Hk. left. reflexivity.
Qed.

Lemma stale_spec S e : stale S e = true <-> exists n, In n (e_nulls e) /\ In n S.
Proof.
  unfold stale. rewrite existsb_exists. setoid_rewrite mem_spec. reflexivity.
Qed.

Lemma expired_spec now a e : expired now a e = true <-> sat_sub now (e_at e) > a.
Proof. unfold expired. rewrite Z.gtb_ltb, Z.ltb_lt. lia. Qed.

(* Dropping the entries that satisfy [drop] from the selected buckets is a filter of the pooled
   entries, provided every entry to be dropped sits in a selected bucket.  Stated with the complement
   because both evictions pass [fun e => negb (drop e)] for [keep]. *)
Lemma retain_state_exact sel (drop : entry -> bool) st :
  (forall k e, In (k, e) (keyed_entries (s_buckets st)) -> drop e = true -> sel k = true) ->
  pooled (fst (retain_state sel (fun e => negb (drop e)) st)) = filter (fun e => negb (drop e)) (pooled st)
  /\ snd (retain_state sel (fun e => negb (drop e)) st) = filter drop (pooled st).
Proof.
  intro Hs. unfold retain_state, pooled. cbn [fst snd set_buckets s_buckets].
  rewrite removed_keyed, !all_entries_keyed, retain_keyed, !filter_map_comm.
  split; f_equal; apply filter_ext_in; intros [k e] Hin; unfold kept; cbn [fst snd];
    destruct (drop e) eqn:Ed; cbn [negb]; rewrite ?orb_true_r, ?(Hs k e Hin Ed); reflexivity.
Qed.

(* [affected_keys] only saves work: under the invariant it selects the bucket of every stale entry *)
Lemma evict_settled_exact cfg st S :
  Inv cfg st ->
  pooled (fst (evict_settled st S)) = filter (fun e => negb (stale S e)) (pooled st)
  /\ snd (evict_settled st S) = filter (stale S) (pooled st).
Proof.
  intro Hi. apply (retain_state_exact _ (stale S)). intros k e Hin Hs.
  apply stale_spec in Hs. destruct Hs as (n & Hn & HS).
  apply (mem_spec k), affected_in. exists n. split; [exact HS|]. apply (inv_index _ _ Hi). eauto.
Qed.

Lemma evict_older_exact st a :
  pooled (fst (evict_older st a)) = filter (fun e => negb (expired (s_now st) a e)) (pooled st)
  /\ snd (evict_older st a) = filter (expired (s_now st) a) (pooled st).
Proof. apply (retain_state_exact _ (expired (s_now st) a)). reflexivity. Qed.

Lemma filter_keys_retain k bs :
  filter (fun kb => negb (list_eqb (fst kb) k)) bs = retain_buckets (fun k' => list_eqb k' k) (fun _ => false) bs.
Proof.
  induction bs as [|[k' b] r IH]; [reflexivity|].
  rewrite retain_cons. cbn [filter fst]. unfold retain_head. rewrite filter_false.
  destruct (list_eqb k' k); cbn [negb app]; rewrite IH; reflexivity.
Qed.

Lemma removed_bucket_entries k bs :
  removed_entries (fun k' => list_eqb k' k) (fun _ => false) bs = bucket_entries k bs.
Proof.
  rewrite removed_keyed. unfold bucket_entries. f_equal. apply filter_ext. intros [k' e].
  unfold kept. cbn [fst snd]. rewrite orb_false_r. apply negb_involutive.
Qed.

(* removing a bucket is the third instance of [retain_state]: select that bucket, keep nothing *)
Lemma remove_bucket_retain st k :
  NoDup (map fst (s_buckets st)) ->
  remove_bucket st k
  = (fst (retain_state (fun k' => list_eqb k' k) (fun _ => false) st), map e_proof (bucket_entries k (s_buckets st))).
Proof.
  intro Hnd. unfold remove_bucket, retain_state. cbn [fst].
  rewrite removed_bucket_entries, <- filter_keys_retain, (bucket_entries_find k _ Hnd).
  destruct (find_bucket k (s_buckets st)) eqn:Hf; [reflexivity|].
  (* no such bucket: nothing is filtered out *)
  apply find_bucket_none in Hf. rewrite (filter_ext_in _ (fun _ => true)), filter_true.
  - unfold idx_remove_all. cbn [flat_map mem existsb negb]. rewrite filter_true. destruct st. reflexivity.
  - intros [k' b] Hin. cbn [fst]. apply negb_true_iff, list_eqb_false. intros ->. exact (Hf (in_map fst _ _ Hin)).
Qed.

Lemma remove_bucket_keyed st k :
  NoDup (map fst (s_buckets st)) ->
  keyed_entries (s_buckets (fst (remove_bucket st k)))
  = filter (fun ke => negb (list_eqb (fst ke) k)) (keyed_entries (s_buckets st)).
Proof.
  intro Hnd. rewrite (remove_bucket_retain st k Hnd). unfold retain_state. cbn [fst set_buckets s_buckets].
  rewrite retain_keyed. apply filter_ext. intros [k' e]. apply orb_false_r.
Qed.

Lemma find_mark_snapshot k t bs b :
  find_bucket k bs = Some b -> find_bucket k (mark_snapshot k t bs) = Some (mkBucket (b_proofs b) (Some t)).
Proof.
  induction bs as [|[k' b1] r IH]; cbn [find_bucket mark_snapshot]; [discriminate|].
  destruct (list_eqb k' k) eqn:E; cbn [find_bucket]; rewrite E; [|exact IH]. intro H. inversion H. reflexivity.
Qed.

(* a snapshot changes the stamp of one bucket and nothing else *)
Lemma snapshot_frame cfg st k :
  exists bs, fst (snapshot cfg st k) = set_buckets st bs (s_index st) /\ map content bs = map content (s_buckets st).
Proof.
  unfold snapshot. destruct (find_bucket k (s_buckets st)); cbn [fst].
  - eexists. split; [reflexivity|apply mark_snapshot_content].
  - exists (s_buckets st). split; [destruct st; reflexivity|reflexivity].
Qed.

(* a snapshot returns the first min(count, batch) proofs of the bucket, in admission order *)
Lemma snapshot_ret cfg st k :
  Inv cfg st ->
  snd (snapshot cfg st k)
  = match bucket_entries k (s_buckets st) with
    | [] => None
    | l => Some (map e_proof (firstn (Z.to_nat (Z.min (zlen l) (c_batch cfg))) l))
    end.
Proof.
  intro Hi. rewrite (bucket_entries_find k _ (inv_keys _ _ Hi)). unfold snapshot.
  destruct (find_bucket k (s_buckets st)) as [b|] eqn:Hf; [|reflexivity].
  pose proof (inv_nonempty_in cfg st k b Hi (find_bucket_some _ _ _ Hf)). destruct (b_proofs b); [contradiction|reflexivity].
Qed.

Lemma inv_step cfg st o : Inv cfg st -> wf_op o -> Inv cfg (fst (step cfg st o)).
Proof.
  intros Hi Hw. destruct o as [pr|S|a|k|k|dt|]; cbn [step]; rewrite ?let_pair; cbn [fst].
  - apply inv_push; assumption.
  - apply inv_retain, Hi.
  - apply inv_retain, Hi.
  - destruct (snapshot_frame cfg st k) as (bs & -> & E). apply (inv_frame cfg st); [exact E|reflexivity|apply Hi|exact Hi].
  - rewrite (remove_bucket_retain st k (inv_keys _ _ Hi)). apply inv_retain, Hi.
  - apply (inv_frame cfg st); [reflexivity|reflexivity|apply Hi|exact Hi].
  - exact Hi.
Qed.

Lemma run_cons cfg st o r :
  run cfg st (o :: r) = (fst (run cfg (fst (step cfg st o)) r), snd (step cfg st o) :: snd (run cfg (fst (step cfg st o)) r)).
Proof. cbn [run]. rewrite !let_pair. reflexivity. Qed.

Lemma run_invariant cfg (P : state -> Prop) (Q : op -> Prop) :
  (forall st o, Q o -> P st -> P (fst (step cfg st o))) ->
  forall ops st, Forall Q ops -> P st -> P (fst (run cfg st ops)).
Proof.
  intros Hstep ops st Hq. revert st. induction Hq as [|o r Ho _ IH]; intros st Hp; [exact Hp|].
  rewrite run_cons. apply IH, Hstep; assumption.
Qed.

Lemma inv_run cfg ops st : Inv cfg st -> Forall wf_op ops -> Inv cfg (fst (run cfg st ops)).
Proof. intros Hi Hw. apply (run_invariant cfg (Inv cfg) wf_op); auto. intros st' o Ho I'. apply inv_step; assumption. Qed.

Lemma run_fold cfg ops : forall st, fst (run cfg st ops) = fold_left (fun s o => fst (step cfg s o)) ops st.
Proof. induction ops as [|o r IH]; intro st; [reflexivity|]. rewrite run_cons. cbn [fst fold_left]. apply IH. Qed.

Lemma pf_each_ok cfg ps :
  Forall (fun pr => zlen (p_pis pr) = c_pi_len cfg /\ p_ver pr = true) ps -> pf_each cfg ps = Ok tt.
Proof.
  induction 1 as [|pr r [H1 H2] _ IH]; cbn [pf_each]; [reflexivity|].
  rewrite H1, Z.eqb_refl, H2. exact IH.
Qed.

Lemma compat_same {A} (bh : digest) (a f : Z) (l : list A) :
  list_eqb bh ZERO_DIGEST = false ->
  compat (Some (bh, a, f)) (map (fun _ => (bh, a, f)) l) = Ok tt.
Proof.
  intro Hz. induction l as [|x r IH]; cbn [map compat]; [reflexivity|].
  rewrite Hz, list_eqb_refl, !Z.eqb_refl. exact IH.
Qed.

(* a non-empty batch, within the batch size, of verified proofs of the right length that all carry the
   same non-dummy metadata *)
Lemma preflight_uniform cfg ps bh a f :
  ps <> [] -> zlen ps <= c_batch cfg ->
  Forall (fun pr => zlen (p_pis pr) = c_pi_len cfg /\ p_ver pr = true /\ read_meta (p_pis pr) = Ok (bh, a, f)) ps ->
  list_eqb bh ZERO_DIGEST = false -> preflight cfg ps = Ok tt.
Proof.
  intros Hne Hlen Hall Hz. unfold preflight.
  rewrite guard_bind_true by (destruct ps; [contradiction|reflexivity]).
  rewrite guard_bind_true by (apply Z.leb_le; exact Hlen).
  rewrite pf_each_ok by (eapply Forall_impl; [|exact Hall]; cbv beta; tauto).
  rewrite (mapM_const _ (bh, a, f)) by (eapply Forall_impl; [|exact Hall]; cbv beta; tauto).
  destruct ps as [|pr r]; [contradiction|]. cbn [rbind map compat]. rewrite Hz. apply compat_same, Hz.
Qed.

Lemma entry_ok_meta cfg bh a f e :
  length bh = 4%nat -> entry_ok cfg (bh ++ [a; f], e) ->
  zlen (p_pis (e_proof e)) = c_pi_len cfg /\ p_ver (e_proof e) = true /\ read_meta (p_pis (e_proof e)) = Ok (bh, a, f).
Proof.
  intros Hl (Hp & Hv & _). cbn [fst snd] in *. split; [apply parse_metadata_ok_iff in Hp; apply Hp|]. split; [exact Hv|].
  apply parse_key in Hp. destruct Hp as (bh' & a' & f' & _ & Hm & Hk & Hl' & _).
  destruct (app_inj_length _ _ _ _ (eq_trans Hl (eq_sym Hl')) Hk) as [E1 E2]. congruence.
Qed.

Lemma preflight_bucket_ok cfg k l :
  l <> [] -> 1 <= c_batch cfg -> (forall e, In e l -> entry_ok cfg (k, e)) ->
  preflight cfg (map e_proof (firstn (Z.to_nat (Z.min (zlen l) (c_batch cfg))) l)) = Ok tt.
Proof.
  intros Hne Hb Hall. destruct l as [|e0 r]; [contradiction|].
  destruct (Hall e0 (or_introl eq_refl)) as (Hp0 & _ & Hd0 & _). cbn [fst snd] in *.
  apply parse_key in Hp0. destruct Hp0 as (bh & a & f & _ & _ & -> & Hbh & Hd). rewrite Hd0 in Hd.
  assert (Hn : Z.to_nat (Z.min (zlen (e0 :: r)) (c_batch cfg)) <> 0%nat).
  { rewrite zlen_cons. pose proof (zlen_nonneg r). lia. }
  apply (preflight_uniform cfg _ bh a f).
  - destruct (Z.to_nat _); [contradiction|discriminate].
  - rewrite zlen_map. unfold zlen. rewrite firstn_length. fold (zlen (e0 :: r)). lia.
  - apply Forall_map, Forall_firstn, Forall_forall. intros e He. exact (entry_ok_meta cfg bh a f e Hbh (Hall e He)).
  - symmetry. exact Hd.
Qed.

Fixpoint verify_calls (l : list out) : Z :=
  match l with [] => 0 | o :: r => b2z (o_verified o) + verify_calls r end.

(* only a push calls the verifier or touches the budget fields *)
Lemma step_quiet cfg st o :
  (forall pr, o <> Push pr) ->
  o_verified (snd (step cfg st o)) = false /\ o_restarted (snd (step cfg st o)) = false
  /\ s_verifs (fst (step cfg st o)) = s_verifs st /\ s_win_start (fst (step cfg st o)) = s_win_start st.
Proof.
  intro H. destruct o as [pr|S|a|k|k|dt|]; [destruct (H pr eq_refl)|..]; cbn [step]; rewrite ?let_pair;
    cbn [fst snd quiet o_verified o_restarted].
  - auto.
  - auto.
  - destruct (snapshot_frame cfg st k) as (bs & -> & _). auto.
  - unfold remove_bucket. destruct (find_bucket k (s_buckets st)); auto.
  - auto.
  - auto.
Qed.

Lemma restarts_spec cfg st : 0 < c_window cfg ->
  (restarts cfg st = true <-> s_now st - s_win_start st >= c_window cfg).
Proof.
  intro W. unfold restarts, sat_sub. rewrite Z.geb_leb, Z.leb_le. destruct (Z.ltb_spec (s_now st) (s_win_start st)); lia.
Qed.

Lemma step_budget cfg st o :
  let r := step cfg st o in
  (o_restarted (snd r) = true -> (exists pr, o = Push pr) /\ restarts cfg st = true)
  /\ s_verifs (fst r) = (if o_restarted (snd r) then 0 else s_verifs st) + b2z (o_verified (snd r))
  /\ s_win_start (fst r) = (if o_restarted (snd r) then s_now st else s_win_start st)
  /\ (o_verified (snd r) = true -> o_restarted (snd r) = restarts cfg st /\ window_verifs cfg st < c_budget cfg).
Proof.
  cbv zeta. assert (Hp : (exists pr, o = Push pr) \/ forall pr, o <> Push pr) by (destruct o; eauto; right; discriminate).
  destruct Hp as [[pr ->]|Hq].
  - cbn [step].
    destruct (push_spec cfg st pr) as [c _|k nulls vol _ _|c k nulls vol _ Hb _|k nulls vol _ Hb _ _ _];
      cbn [set_buckets charged windowed set_budget s_verifs s_win_start b2z]; unfold window_verifs, window_start in *;
      destruct (restarts cfg st); (split; [eauto|]); (split; [lia|]); (split; [reflexivity|]); intro; try discriminate; auto.
  - destruct (step_quiet cfg st o Hq) as (-> & -> & -> & ->). cbn [b2z].
    split; [discriminate|]. split; [lia|]. split; [reflexivity|discriminate].
Qed.

Lemma step_budget_ok cfg st o :
  0 <= s_verifs st <= c_budget cfg -> 0 <= s_verifs (fst (step cfg st o)) <= c_budget cfg.
Proof.
  intro Hok. destruct (step_budget cfg st o) as (_ & -> & _ & H4).
  destruct (o_verified (snd (step cfg st o))); cbn [b2z].
  - destruct (H4 eq_refl) as [-> Hw]. unfold window_verifs in Hw. destruct (restarts cfg st); lia.
  - destruct (o_restarted (snd (step cfg st o))); lia.
Qed.

(* within a stretch of history without a window restart, every verifier call is counted *)
Lemma run_counts cfg ops : forall st,
  Forall (fun o => o_restarted o = false) (snd (run cfg st ops)) ->
  s_verifs (fst (run cfg st ops)) = s_verifs st + verify_calls (snd (run cfg st ops)).
Proof.
  induction ops as [|o r IH]; intros st Hn; [cbn; lia|].
  rewrite run_cons in *. cbn [fst snd verify_calls] in *. inversion Hn as [|? ? Ho Hr]; subst.
  rewrite (IH _ Hr). destruct (step_budget cfg st o) as (_ & -> & _). rewrite Ho. lia.
Qed.

Lemma run_budget_ok cfg st ops :
  0 <= s_verifs st <= c_budget cfg -> 0 <= s_verifs (fst (run cfg st ops)) <= c_budget cfg.
Proof.
  apply (run_invariant cfg (fun st => 0 <= s_verifs st <= c_budget cfg) (fun _ => True)); [|apply Forall_True].
  intros st' o _. apply step_budget_ok.
Qed.

(* admission times along a bucket never decrease and never exceed the clock *)
Fixpoint nondecr_upto (now : Z) (l : list Z) : Prop :=
  match l with
  | [] => True
  | x :: r => x <= now /\ Forall (fun y => x <= y) r /\ nondecr_upto now r
  end.

Definition bucket_times_ok (now : Z) (kb : key * bucket) : Prop :=
  nondecr_upto now (map e_at (b_proofs (snd kb))).
Definition TimeInv (st : state) : Prop := Forall (bucket_times_ok (s_now st)) (s_buckets st).

Lemma nondecr_filter now (keep : entry -> bool) ps :
  nondecr_upto now (map e_at ps) -> nondecr_upto now (map e_at (filter keep ps)).
Proof.
  induction ps as [|e r IH]; cbn [map filter nondecr_upto]; [auto|].
  intros [H1 [H2 H3]]. destruct (keep e); [|apply IH; exact H3].
  cbn [map nondecr_upto]. split; [exact H1|]. split; [|apply IH; exact H3].
  apply Forall_map. eapply incl_Forall; [apply incl_filter|]. apply Forall_map. exact H2.
Qed.

Lemma nondecr_snoc now ps e :
  e_at e = now -> nondecr_upto now (map e_at ps) -> nondecr_upto now (map e_at (ps ++ [e])).
Proof.
  intro He. induction ps as [|x r IH]; cbn [map app nondecr_upto].
  - intros _. rewrite He. repeat split; [lia|constructor].
  - intros [H1 [H2 H3]]. split; [exact H1|]. split; [|apply IH; exact H3].
    rewrite map_app. apply Forall_app. split; [exact H2|]. cbn [map]. constructor; [lia|constructor].
Qed.

Lemma nondecr_later now now' l : now <= now' -> nondecr_upto now l -> nondecr_upto now' l.
Proof.
  intro Hle. induction l as [|x r IH]; cbn [nondecr_upto]; [auto|].
  intros [H1 [H2 H3]]. split; [lia|]. split; [exact H2|apply IH; exact H3].
Qed.

(* in a sorted list nothing in a prefix exceeds anything after it *)
Lemma nondecr_app_le now l1 l2 x y : nondecr_upto now (l1 ++ l2) -> In x l1 -> In y l2 -> x <= y.
Proof.
  induction l1 as [|z r IH]; [contradiction|]. cbn [app nondecr_upto]. intros (_ & H2 & H3) [->|Hx] Hy.
  - rewrite Forall_forall in H2. apply H2, in_or_app. right. exact Hy.
  - exact (IH H3 Hx Hy).
Qed.

Lemma time_step cfg st o : TimeInv st -> TimeInv (fst (step cfg st o)).
Proof.
  unfold TimeInv. set (Q := fun l => nondecr_upto (s_now st) (map e_at l)). intro T. change (bucketwise Q (s_buckets st)) in T.
  destruct o as [pr|S|a|k|k|dt|]; cbn [step]; rewrite ?let_pair; cbn [fst].
  - destruct (push_spec cfg st pr) as [| | |k nulls vol _ _ _ _ _]; try exact T.
    apply (add_entry_bucketwise Q); [apply (nondecr_snoc _ []); reflexivity|intro l; apply nondecr_snoc; reflexivity|exact T].
  - apply (retain_bucketwise Q); [|exact T]. intros l H _. apply nondecr_filter, H.
  - apply (retain_bucketwise Q); [|exact T]. intros l H _. apply nondecr_filter, H.
  - destruct (snapshot_frame cfg st k) as (bs & -> & E). cbn [set_buckets s_buckets s_now].
    apply (bucketwise_content Q). rewrite E. apply bucketwise_content, T.
  - unfold remove_bucket. destruct (find_bucket k (s_buckets st)); [|exact T].
    eapply incl_Forall; [apply incl_filter|exact T].
  - eapply Forall_impl; [|exact T]. intros kb H. eapply nondecr_later; [|exact H]. cbn [s_now]. lia.
  - exact T.
Qed.

Lemma time_run cfg ops st : TimeInv st -> TimeInv (fst (run cfg st ops)).
Proof. apply (run_invariant cfg TimeInv (fun _ => True)); [|apply Forall_True]. intros st' o _. apply time_step. Qed.

Lemma bucket_entries_times cfg st k :
  Inv cfg st -> TimeInv st -> nondecr_upto (s_now st) (map e_at (bucket_entries k (s_buckets st))).
Proof.
  intros Hi T. rewrite (bucket_entries_find k _ (inv_keys _ _ Hi)).
  destruct (find_bucket k (s_buckets st)) as [b|] eqn:Hf; [|exact I].
  apply find_bucket_some in Hf. exact (proj1 (Forall_forall _ _) T _ Hf).
Qed.
