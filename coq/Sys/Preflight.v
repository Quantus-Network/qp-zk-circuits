(* Executable model of the batch provers' commit-time admission checks (C14) and of the padding-template
   validators (C16).

     wormhole/aggregator/src/private_batch/prover/lib.rs : PrivateBatchProver::commit (the checks before padding),
                                                            ensure_leaf_batch_compatible, verify_dummy_leaf_template
     wormhole/aggregator/src/public_batch/prover/lib.rs  : preflight_private_batch_proofs (called by
                                                            PublicBatchProver::commit and ProvingContext::prove_batch),
                                                            ensure_private_batch_compatible,
                                                            verify_dummy_private_batch_template

   A child proof is abstract: its public-input vector (canonical u64 values of the felts) and whether the
   pinned child verifier accepts it.  Checks are transcribed in the ORDER of the Rust code; every error
   carries the class of the check that failed.  Model only; proofs in PreflightProofs.v. *)
From V.Base Require Import Common.
From V.Generated Require Import Constants.
From V.Circ Require Import PrivateBatch PublicBatch.
From V.Spec Require Import LeanPort.
From V.Sys Require Import Parsers.

Record child := mkChild { c_pis : list Z; c_ok : bool }.

(* ---------------------------------------------------------------- error classes *)
Definition E_EMPTY : Z := 1.        (* "no ... proofs to aggregate" *)
Definition E_TOO_MANY : Z := 2.     (* more proofs than slots *)
Definition E_PI_LEN : Z := 3.       (* public-input length mismatch *)
Definition E_INVALID : Z := 4.      (* child proof fails verification under the pinned verifier *)
Definition E_PAD_ASSET : Z := 5.    (* padding needed and the proof's asset id is not 0 (or not even a u32) *)
Definition E_ASSET : Z := 6.        (* asset ids differ *)
Definition E_BLOCK : Z := 7.        (* real proofs for different blocks *)
Definition E_FEE : Z := 8.          (* real proofs with different fee rates *)
Definition E_DUP_NULL : Z := 9.     (* two real proofs with one nullifier *)
Definition E_ALL_DUMMY : Z := 10.   (* no real proof *)
Definition E_SUM : Z := 11.         (* a grouped exit sum exceeds u32::MAX *)

(* ---------------------------------------------------------------- private batch: ensure_leaf_batch_compatible *)
(* `metas.first()` / `.skip(1)`: every later asset id equals the first one *)
Definition asset_check (ms : list (list Z)) : res unit :=
  match ms with
  | [] => Ok tt
  | first :: rest => guard (forallb (fun m => lf_asset m =? lf_asset first) rest) E_ASSET
  end.

(* the main loop: `reference` = first non-dummy meta seen so far, `seen` = nullifiers of the non-dummy metas so
   far (the HashMap's key set).  Per non-dummy meta, in this order: block hash, fee, nullifier. *)
Fixpoint compat_loop (reference : option (list Z)) (seen : list (list Z)) (ms : list (list Z))
  : res (option (list Z)) :=
  match ms with
  | [] => Ok reference
  | m :: r =>
    if is_dummy_pb m then compat_loop reference seen r
    else
      rf <-? match reference with
             | None => Ok m
             | Some rf =>
               _ <-? guard (list_eqb (lf_bh m) (lf_bh rf)) E_BLOCK ;;
               _ <-? guard (lf_fee m =? lf_fee rf) E_FEE ;;
               Ok rf
             end ;;
      _ <-? guard (negb (dmem (lf_null m) seen)) E_DUP_NULL ;;
      compat_loop (Some rf) (lf_null m :: seen) r
  end.

(* the grouped-exit-sum pass: a map exit account -> u128 sum, fed with both (exit account, output amount) pairs of
   every non-dummy meta.  The map is an association list with distinct keys. *)
Fixpoint acc_add (k : list Z) (a : Z) (acc : list (list Z * Z)) : list (list Z * Z) :=
  match acc with
  | [] => [(k, a)]
  | (k', s) :: r => if list_eqb k' k then (k', s + a) :: r else (k', s) :: acc_add k a r
  end.
Definition real_pairs (ms : list (list Z)) : list (list Z * Z) :=
  flat_map (fun m => if is_dummy_pb m then [] else [(lf_exit1 m, lf_out1 m); (lf_exit2 m, lf_out2 m)]) ms.
Definition exit_sums (ms : list (list Z)) : list (list Z * Z) :=
  fold_left (fun acc ka => acc_add (fst ka) (snd ka) acc) (real_pairs ms) [].
(* `sum > u32::MAX` for some account -> bail *)
Definition sum_check (ms : list (list Z)) : res unit :=
  guard (forallb (fun ks => snd ks <? two32) (exit_sums ms)) E_SUM.

(* the function as it was BEFORE the grouped-sum repair (kept to record why the pass is needed) *)
Definition ensure_leaf_batch_compatible_nosum (ms : list (list Z)) : res unit :=
  _ <-? asset_check ms ;;
  rf <-? compat_loop None [] ms ;;
  guard (match rf with Some _ => true | None => false end) E_ALL_DUMMY.

Definition ensure_leaf_batch_compatible (ms : list (list Z)) : res unit :=
  _ <-? ensure_leaf_batch_compatible_nosum ms ;;
  sum_check ms.

(* the per-proof loop of commit: shape, cryptography, and (only when padding will be added) native asset *)
Fixpoint check_leaf_children (padding : bool) (cs : list child) : res unit :=
  match cs with
  | [] => Ok tt
  | c :: r =>
    _ <-? guard (zlen (c_pis c) =? PR_LEAF_PI_LEN) E_PI_LEN ;;
    _ <-? guard (c_ok c) E_INVALID ;;
    _ <-? guard (negb padding || (lf_asset (c_pis c) =? 0)) E_PAD_ASSET ;;
    check_leaf_children padding r
  end.

(* PrivateBatchProver::commit up to (not including) padding, shuffling and witness filling; n = num_leaf_proofs *)
Definition private_commit_preflight_with (compat : list (list Z) -> res unit) (n : Z) (cs : list child) : res unit :=
  _ <-? guard (negb (zlen cs =? 0)) E_EMPTY ;;
  _ <-? guard (zlen cs <=? n) E_TOO_MANY ;;
  _ <-? check_leaf_children (zlen cs <? n) cs ;;
  compat (map c_pis cs).
Definition private_commit_preflight := private_commit_preflight_with ensure_leaf_batch_compatible.
Definition private_commit_preflight_nosum := private_commit_preflight_with ensure_leaf_batch_compatible_nosum.

(* what commit then hands to the circuit (before the shuffle): the supplied proofs followed by copies of the template *)
Definition padded (n : Z) (ms : list (list Z)) (tpl : list Z) : list (list Z) :=
  ms ++ repeat tpl (Z.to_nat (n - zlen ms)).

(* ---------------------------------------------------------------- public batch *)
Fixpoint check_inner_children (pi_len : Z) (cs : list child) : res unit :=
  match cs with
  | [] => Ok tt
  | c :: r =>
    _ <-? guard (zlen (c_pis c) =? pi_len) E_PI_LEN ;;
    _ <-? guard (c_ok c) E_INVALID ;;
    check_inner_children pi_len r
  end.

(* ensure_private_batch_compatible: per non-dummy meta, in this order: block hash, asset, fee *)
Fixpoint inner_loop (reference : option (list Z)) (ms : list (list Z)) : res (option (list Z)) :=
  match ms with
  | [] => Ok reference
  | m :: r =>
    if is_dummy_inner m then inner_loop reference r
    else
      match reference with
      | None => inner_loop (Some m) r
      | Some rf =>
        _ <-? guard (list_eqb (in_bh m) (in_bh rf)) E_BLOCK ;;
        _ <-? guard (in_asset m =? in_asset rf) E_ASSET ;;
        _ <-? guard (in_fee m =? in_fee rf) E_FEE ;;
        inner_loop (Some rf) r
      end
  end.
Definition ensure_private_batch_compatible (ms : list (list Z)) : res unit :=
  rf <-? inner_loop None ms ;;
  guard (match rf with Some _ => true | None => false end) E_ALL_DUMMY.

(* preflight_private_batch_proofs; m = num_private_batch_proofs, pi_len = the pinned verifier's num_public_inputs *)
Definition public_preflight (m pi_len : Z) (cs : list child) : res unit :=
  _ <-? guard (negb (zlen cs =? 0)) E_EMPTY ;;
  _ <-? guard (zlen cs <=? m) E_TOO_MANY ;;
  _ <-? check_inner_children pi_len cs ;;
  ensure_private_batch_compatible (map c_pis cs).

(* ---------------------------------------------------------------- padding templates (C16) *)
Definition T_PARSE : Z := 1.
Definition T_BLOCK : Z := 2.
Definition T_OUTPUT : Z := 3.
Definition T_ASSET : Z := 4.
Definition T_EXIT : Z := 5.
Definition T_VERIFY : Z := 6.

Definition reclass {A} (r : res A) (code : Z) : res A :=
  match r with Ok a => Ok a | Err _ => Err code end.

(* verify_dummy_leaf_template: parse (PublicCircuitInputs::try_from_u64_slice), sentinel, then cryptography *)
Definition leaf_template_check (t : child) : res unit :=
  pis <-? reclass (parse_leaf_u64 (c_pis t)) T_PARSE ;;
  _ <-? guard (list_eqb (l_bh pis) zero4) T_BLOCK ;;
  _ <-? guard ((l_out1 pis =? 0) && (l_out2 pis =? 0)) T_OUTPUT ;;
  _ <-? guard (l_asset pis =? 0) T_ASSET ;;
  _ <-? guard (list_eqb (l_exit1 pis) zero4 && list_eqb (l_exit2 pis) zero4) T_EXIT ;;
  guard (c_ok t) T_VERIFY.

(* the slot loop of verify_dummy_private_batch_template: per slot, amount then account *)
Fixpoint slots_check (ss : list Slot) : res unit :=
  match ss with
  | [] => Ok tt
  | s :: r =>
    _ <-? guard (s_sum s =? 0) T_OUTPUT ;;
    _ <-? guard (list_eqb (s_account s) zero4) T_EXIT ;;
    slots_check r
  end.
Definition private_batch_template_check (t : child) : res unit :=
  pis <-? reclass (parse_priv_u64 (c_pis t)) T_PARSE ;;
  _ <-? guard (list_eqb (pb_bh pis) zero4) T_BLOCK ;;
  _ <-? slots_check (pb_slots pis) ;;
  guard (c_ok t) T_VERIFY.

(* ---------------------------------------------------------------- canonical encodings / dispatch *)
Definition enc_unit (r : res unit) : list Z :=
  match r with Ok _ => [1] | Err c => [0; c] end.

Definition seg (args : list (list Z)) (i : nat) : list Z := nth i args [].
Definition arg (args : list (list Z)) (i j : nat) : Z := nth j (seg args i) 0.

(* a child segment is [verifies; pis...] *)
Definition child_of_seg (s : list Z) : child :=
  match s with
  | [] => mkChild [] false
  | v :: pis => mkChild pis (negb (v =? 0))
  end.
Definition b2z (b : bool) : Z := if b then 1 else 0.

Definition dispatch (fid : Z) (args : list (list Z)) : list Z :=
  (* 1401: commit result.  segs: [n]; template pis; children *)
  if fid =? 1401 then enc_unit (private_commit_preflight (arg args 0 0) (map child_of_seg (skipn 2 args)))
  (* 1402: after an accepted commit, can the circuit be satisfied by the padded batch? (any order: C14_private_accept_sound) *)
  else if fid =? 1402 then
    [b2z (priv_compat (padded (arg args 0 0) (map c_pis (map child_of_seg (skipn 2 args))) (seg args 1)))]
  (* 1403: an explicitly ordered batch of leaf statements *)
  else if fid =? 1403 then [b2z (priv_compat args)]
  (* 1404: the compatibility function alone *)
  else if fid =? 1404 then enc_unit (ensure_leaf_batch_compatible args)
  (* 1411 / 1414: public preflight.  segs: [m; pi_len]; template pis; children *)
  else if (fid =? 1411) || (fid =? 1414) then
    enc_unit (public_preflight (arg args 0 0) (arg args 0 1) (map child_of_seg (skipn 2 args)))
  else if fid =? 1412 then
    [b2z (pub_compat (padded (arg args 0 0) (map c_pis (map child_of_seg (skipn 2 args))) (seg args 1)))]
  (* 1601 / 1602: template at an entry point.  segs: [entry id]; [verifies; pis...] *)
  else if fid =? 1601 then enc_unit (leaf_template_check (child_of_seg (seg args 1)))
  else if fid =? 1602 then enc_unit (private_batch_template_check (child_of_seg (seg args 1)))
  else [-2].
