From V.Base Require Import Common.
From V.Generated Require Import Constants.
From V.Sys Require Import ConfigPolicy.

(* a guard may assume what the guards before it have established *)
Lemma guard_bind_ext {B} b c (k k' : res B) :
  (b = true -> k = k') -> (_ <-? guard b c ;; k) = (_ <-? guard b c ;; k').
Proof. destruct b; cbn [guard rbind]; [intro H; apply H; reflexivity|reflexivity]. Qed.

(* ... and contributes its conjunct to what a chain of guards accepts *)
Lemma guard_bind_ok_and {B} b c (k : res B) r (P Q : Prop) :
  (b = true <-> P) -> (P -> (k = Ok r <-> Q)) -> ((_ <-? guard b c ;; k) = Ok r <-> P /\ Q).
Proof.
  intros HP HQ. rewrite guard_bind_ok_iff, HP. split; intros [p H]; (split; [exact p|apply (HQ p), H]).
Qed.

(* a guard whose code lies in a range keeps "accepted, or an error with a code in that range" *)
Lemma guard_bind_err_range (lo hi : Z) b c (k : res unit) :
  lo <= c <= hi -> (k = Ok tt \/ exists code, k = Err code /\ lo <= code <= hi) ->
  (_ <-? guard b c ;; k) = Ok tt \/ exists code, (_ <-? guard b c ;; k) = Err code /\ lo <= code <= hi.
Proof. intros Hc Hk. destruct b; [exact Hk|]. right. exists c. split; [reflexivity|exact Hc]. Qed.

Lemma bitlen_log2 (x : Z) : 0 < x -> bitlen x = Z.log2 x + 1.
Proof.
  intro Hx. destruct x as [|q|q]; try lia.
  destruct q as [q|q|]; cbn [bitlen Z.log2 Pos.size]; lia.
Qed.

Lemma leading_zeros64_range (x : Z) : 0 <= x < two64 -> 0 <= leading_zeros64 x <= 64.
Proof.
  intros [H0 H1]. unfold leading_zeros64. destruct (Z.eq_dec x 0) as [->|Hn]; [cbn; lia|].
  rewrite bitlen_log2 by lia. pose proof (Z.log2_nonneg x).
  assert (Z.log2 x < 64) by (apply Z.log2_lt_pow2; [lia|exact H1]). lia.
Qed.

(* on n >= 1 the machine computation is ceil(log2 n) (Coq's Z.log2_up), with no wrap *)
Lemma log2_ceil_is_log2_up (n : Z) : 1 <= n < two64 -> log2_ceil n = Z.log2_up n.
Proof.
  intros [H1 H2]. unfold log2_ceil, leading_zeros64, wrap64.
  rewrite Z.mod_small by lia.
  destruct (Z.eq_dec n 1) as [->|Hn]; [reflexivity|].
  rewrite bitlen_log2 by lia.
  rewrite Z.log2_up_eqn by lia. replace (Z.pred n) with (n - 1) by (unfold Z.pred; lia). unfold Z.succ. lia.
Qed.

Lemma log2_ceil_zero_wraps : log2_ceil 0 = 64.
Proof. reflexivity. Qed.

(* with overflow checks the subtraction panics only at 0 *)
Lemma log2_ceil_checked_ok (n : Z) : 1 <= n < two64 -> log2_ceil_checked n = Ok (log2_ceil n).
Proof.
  intro H. unfold log2_ceil_checked, log2_ceil, wrap64. rewrite Z.mod_small by lia.
  destruct (Z.eqb_spec n 0); [lia|reflexivity].
Qed.

Definition usize (x : Z) : Prop := 0 <= x < two64.

Definition usize_config (c : Config) : Prop :=
  usize (c_num_wires c) /\ usize (c_num_routed_wires c) /\ usize (c_security_bits c) /\
  usize (c_num_challenges c) /\ usize (c_max_quotient_degree_factor c) /\ usize (c_rate_bits c) /\
  usize (c_cap_height c) /\ usize (c_num_query_rounds c).

(* the policy, with the thresholds by name; [lg] is the logarithm used in the last conjunct *)
Definition policy (lg : Z -> Z) (c : Config) : Prop :=
  0 < c_num_challenges c /\ 0 < c_security_bits c /\ 0 < c_num_query_rounds c /\
  MIN_NUM_WIRES <= c_num_wires c /\
  MIN_NUM_ROUTED_WIRES <= c_num_routed_wires c /\ c_num_routed_wires c <= c_num_wires c /\
  MIN_MAX_QUOTIENT_DEGREE_FACTOR <= c_max_quotient_degree_factor c /\
  c_rate_bits c <= MAX_RATE_BITS /\ c_cap_height c <= MAX_CAP_HEIGHT /\
  lg (c_max_quotient_degree_factor c) <= c_rate_bits c.

(* [lg] need only agree with the model's log2_ceil where the last check is reached *)
Lemma config_ok_iff_upto (lg : Z -> Z) (c : Config) :
  (MIN_MAX_QUOTIENT_DEGREE_FACTOR <= c_max_quotient_degree_factor c ->
   log2_ceil (c_max_quotient_degree_factor c) = lg (c_max_quotient_degree_factor c)) ->
  (validate_circuit_config c = Ok tt <-> policy lg c).
Proof.
  intro Hlg. unfold validate_circuit_config, policy.
  do 3 (apply guard_bind_ok_and; [apply Z.ltb_lt|intros _]). do 3 (apply guard_bind_ok_and; [apply Z.leb_le|intros _]).
  apply guard_bind_ok_and; [apply Z.leb_le|intro Hq]. do 2 (apply guard_bind_ok_and; [apply Z.leb_le|intros _]).
  rewrite guard_bind_ok_iff, Z.leb_le, (Hlg Hq). tauto.
Qed.

Lemma config_ok_iff (c : Config) : validate_circuit_config c = Ok tt <-> policy log2_ceil c.
Proof. apply config_ok_iff_upto. reflexivity. Qed.

(* with the mathematical ceiling of the logarithm, once the factor is a usize *)
Lemma config_ok_iff_log2_up (c : Config) :
  usize (c_max_quotient_degree_factor c) -> (validate_circuit_config c = Ok tt <-> policy Z.log2_up c).
Proof.
  intros Hq. apply config_ok_iff_upto. intro H7. apply log2_ceil_is_log2_up.
  unfold usize in Hq. unfold MIN_MAX_QUOTIENT_DEGREE_FACTOR in H7. lia.
Qed.

(* a build with overflow checks behaves identically: the subtraction in log2_ceil is only reached
   with max_quotient_degree_factor >= 7 *)
Lemma validate_checked_eq (c : Config) :
  usize (c_max_quotient_degree_factor c) -> validate_circuit_config_checked c = validate_circuit_config c.
Proof.
  intro Hq. unfold usize in Hq. unfold validate_circuit_config_checked, validate_circuit_config.
  do 6 (apply guard_bind_ext; intros _). apply guard_bind_ext. intro E7. do 2 (apply guard_bind_ext; intros _).
  apply Z.leb_le in E7. unfold MIN_MAX_QUOTIENT_DEGREE_FACTOR in E7. rewrite log2_ceil_checked_ok by lia. reflexivity.
Qed.

Definition usize_opt (o : option Z) : Prop := match o with Some v => usize v | None => True end.

Definition usize_args (a : Args) : Prop :=
  usize_opt (a_rate_bits a) /\ usize_opt (a_cap_height a) /\ usize_opt (a_num_wires a) /\
  usize_opt (a_num_routed_wires a) /\ usize_opt (a_max_quotient_degree_factor a) /\
  usize_opt (a_num_query_rounds a) /\ usize_opt (a_security_bits a) /\ usize_opt (a_num_challenges a).

Lemma check_opt_ok_iff (o : option Z) (ok : Z -> bool) (code : Z) :
  check_opt o ok code = Ok tt <-> (forall v, o = Some v -> ok v = true).
Proof.
  destruct o as [v|]; cbn [check_opt].
  - rewrite guard_ok_iff. split; [intros H v' E; inversion E; subst; exact H | intro H; apply H; reflexivity].
  - split; [intros _ v E; discriminate E | reflexivity].
Qed.

Lemma check_opt_bind_ok_iff {B} o ok code (k : res B) r :
  (_ <-? check_opt o ok code ;; k) = Ok r <-> (forall v, o = Some v -> ok v = true) /\ k = Ok r.
Proof. rewrite rbind_unit_ok_iff, check_opt_ok_iff. reflexivity. Qed.

Lemma unwrap_or_ind (P : Z -> Prop) (o : option Z) (d : Z) :
  (forall v, o = Some v -> P v) -> P d -> P (unwrap_or o d).
Proof. intros HS HN. destruct o as [v|]; [apply HS; reflexivity|exact HN]. Qed.

Lemma some_pos (o : option Z) : usize_opt o -> is_some_zero o = false -> forall v, o = Some v -> 0 < v.
Proof.
  intros Hr Hz v ->. cbn in *. unfold usize in Hr. apply Z.eqb_neq in Hz. lia.
Qed.

Lemma div_ceil_pos (a b : Z) : 0 < a -> 0 < b -> 0 < div_ceil a b.
Proof. intros Ha Hb. unfold div_ceil. destruct (Z.ltb_spec 0 (a mod b)); nia. Qed.

(* An option that is given is checked by the CLI against the same threshold as the policy's; one that is absent
   takes the value of [baseline], the private-batch config, which passes the policy ([B]). *)
Lemma cli_implies_policy (a : Args) :
  usize_opt (a_num_query_rounds a) -> usize_opt (a_security_bits a) -> usize_opt (a_num_challenges a) ->
  cli_validate a = Ok tt -> validate_circuit_config (cli_build a) = Ok tt.
Proof.
  intros Rqr Rs Rn H.
  assert (B : policy log2_ceil baseline) by (apply config_ok_iff; reflexivity).
  unfold cli_validate in H. apply guard_bind_ok_iff in H as [Z0 H].
  apply check_opt_bind_ok_iff in H as [Hr H]. apply check_opt_bind_ok_iff in H as [Hc H].
  apply guard_bind_ok_iff in H as [Hrq H].
  apply check_opt_bind_ok_iff in H as [Hw H]. apply check_opt_bind_ok_iff in H as [Hq H].
  apply check_opt_bind_ok_iff in H as [Hrw H]. apply check_opt_bind_ok_iff in H as [Hrw' _].
  rewrite negb_true_iff in Z0. cbn [existsb] in Z0. do 5 (apply orb_false_elim in Z0 as [_ Z0]).
  apply orb_false_elim in Z0 as [Zqr Z0]. apply orb_false_elim in Z0 as [Zs Z0]. apply orb_false_elim in Z0 as [Zn _].
  assert (Q : MIN_MAX_QUOTIENT_DEGREE_FACTOR <= unwrap_or (a_max_quotient_degree_factor a) (c_max_quotient_degree_factor baseline)).
  { apply unwrap_or_ind; [intros v E; apply Hq in E; lia|apply B]. }
  apply config_ok_iff. unfold policy, cli_build.
  cbn [c_num_wires c_num_routed_wires c_security_bits c_num_challenges c_max_quotient_degree_factor c_rate_bits
       c_cap_height c_num_query_rounds].
  repeat split.
  - apply unwrap_or_ind; [exact (some_pos _ Rn Zn)|apply B].
  - apply unwrap_or_ind; [exact (some_pos _ Rs Zs)|apply B].
  - apply unwrap_or_ind; [exact (some_pos _ Rqr Zqr)|].
    destruct (a_rate_bits a); [apply div_ceil_pos; [reflexivity|lia]|apply B].
  - apply unwrap_or_ind; [intros v E; apply Hw in E; lia|apply B].
  - apply unwrap_or_ind; [intros v E; apply Hrw in E; lia|apply B].
  - apply unwrap_or_ind; [intros v E; apply Hrw' in E; lia|].
    (* the baseline's routed wires are fewer than the least number of wires the CLI lets through *)
    apply unwrap_or_ind; [intros v E; apply Hw in E; apply Z.le_trans with MIN_NUM_WIRES; [apply Z.leb_le; reflexivity|lia]|apply B].
  - exact Q.
  - apply unwrap_or_ind; [intros v E; apply Hr in E; lia|apply B].
  - apply unwrap_or_ind; [intros v E; apply Hc in E; lia|apply B].
  - (* the CLI checks the same effective pair; max(q,1) = q since q >= 7 *)
    unfold MIN_MAX_QUOTIENT_DEGREE_FACTOR in Q. rewrite Z.max_l in Hrq by lia. lia.
Qed.

Definition args_none : Args := mkArgs None None None None None None None None None false.
(* the converse of cli_implies_policy fails: the CLI also gates the security knobs, e.g. `--security-bits 90`
   alone is refused by it and builds a config that passes the policy (both evaluated in Properties/C28.v) *)
Definition args_security_90 : Args := mkArgs None None None None None None None (Some 90) None false.
