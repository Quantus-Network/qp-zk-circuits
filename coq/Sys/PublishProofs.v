(* Proofs about the publication model (C23).

   The state space is finite: a run of [commit_staging_dir_impl] performs at most [MAX_RENAMES] = 3
   renames and [MAX_REMOVES] = 1 removal, so only the first three rename faults and the first remove
   fault of an arbitrary (unbounded) fault vector are ever consumed ([run_publish_norm], proved for all
   lists).  The checks are then evaluated inside Coq on every normalised vector ([all_checked],
   3 * 4^3 * 6 runs) and lifted to all vectors. *)
From V.Base Require Import Common.
From V.Sys Require Import Publish.

Definition ceqb (a b : content) : bool := enc_content a =? enc_content b.
Lemma ceqb_eq a b : ceqb a b = true <-> a = b.
Proof. destruct a, b; cbv; split; congruence. Qed.

Definition veqb (a b : verdict) : bool := enc_verdict a =? enc_verdict b.
Lemma veqb_eq a b : veqb a b = true <-> a = b.
Proof. destruct a, b; cbv; split; congruence. Qed.

Definition valid_init (o : content) : Prop := o = Absent \/ o = Prev \/ o = File.

(* [o] = what the output path held before the run (the "previous set": nothing, the previous artifact
   directory, or the operator's file); [r] = the observation when the process returned or died. *)
Definition out_safe (o : content) (r : obs) : Prop :=
  let s := o_fs r in
  (* (a) the output path holds the previous contents, the complete new set, or nothing: never a mix *)
  (f_out s = o \/ f_out s = New \/ f_out s = Absent) /\
  (* (b) if the previous contents are no longer at the output path, the new set is there, or both
         copies survive elsewhere (previous at the aside path, new at the staging path) *)
  (f_out s <> o -> f_out s = New \/ (f_old s = o /\ f_stg s = New)) /\
  (* (c) success is reported only if the new set is live; an error only if it is not *)
  (o_verdict r = VOk -> f_out s = New) /\
  (o_verdict r = VErr -> f_out s <> New).

Definition out_safe_b (o : content) (r : obs) : bool :=
  let s := o_fs r in
  (ceqb (f_out s) o || ceqb (f_out s) New || ceqb (f_out s) Absent)
  && (ceqb (f_out s) o || ceqb (f_out s) New || (ceqb (f_old s) o && ceqb (f_stg s) New))
  && implb (veqb (o_verdict r) VOk) (ceqb (f_out s) New)
  && implb (veqb (o_verdict r) VErr) (negb (ceqb (f_out s) New)).

Lemma out_safe_b_ok o r : out_safe_b o r = true -> out_safe o r.
Proof.
  unfold out_safe_b, out_safe. cbv zeta.
  rewrite !andb_true_iff, !implb_true_iff, !orb_true_iff, andb_true_iff, !veqb_eq, negb_true_iff, <- not_true_iff_false, !ceqb_eq.
  tauto.
Qed.

(* the staged set is discarded only when the output path (still / again) holds its previous contents;
   in particular a first publication never loses the only copy *)
Definition kept_b (o : content) (r : obs) : bool :=
  let s := o_fs r in
  ceqb (f_out s) New || ceqb (f_stg s) New || (negb (ceqb o Absent) && ceqb (f_out s) o).

Definition MAX_RENAMES : nat := 3.
Definition MAX_REMOVES : nat := 1.

Definition all_inits : list content := [Absent; Prev; File].
Definition all_rf : list rfault := [ROk; RFail; RCrashBefore; RCrashAfter].
Definition all_mf : list mfault := [MOk; MFail; MFailPartial; MCrashBefore; MCrashPartial; MCrashAfter].
Definition all_gen : list gen_outcome := [GInvalidConfig; GStagingFail; GFail; GCrash; GOk].

(* every rename-fault vector of length exactly MAX_RENAMES, every remove-fault vector of length MAX_REMOVES *)
Definition vecs_rf : list (list rfault) :=
  flat_map (fun a => flat_map (fun b => map (fun c => [a; b; c]) all_rf) all_rf) all_rf.
Definition vecs_mf : list (list mfault) := map (fun m => [m]) all_mf.

(* truncate to the bound, pad with "no fault" *)
Definition norm_rf (rf : list rfault) : list rfault := firstn MAX_RENAMES (rf ++ [ROk; ROk; ROk]).
Definition norm_mf (mf : list mfault) : list mfault := firstn MAX_REMOVES (mf ++ [MOk]).

Lemma all_inits_complete o : valid_init o -> In o all_inits.
Proof. intros [H|[H|H]]; subst; cbn; auto. Qed.
Lemma all_rf_complete a : In a all_rf.
Proof. destruct a; cbn; auto. Qed.
Lemma all_mf_complete a : In a all_mf.
Proof. destruct a; cbn; auto 7. Qed.

Lemma vecs_rf_complete a b c : In [a; b; c] vecs_rf.
Proof.
  unfold vecs_rf. apply in_flat_map. exists a. split; [apply all_rf_complete|].
  apply in_flat_map. exists b. split; [apply all_rf_complete|].
  apply (in_map (fun c0 => [a; b; c0])). apply all_rf_complete.
Qed.

Lemma norm_rf_in rf : In (norm_rf rf) vecs_rf.
Proof. destruct rf as [|a [|b [|c rest]]]; apply vecs_rf_complete. Qed.
Lemma norm_mf_in mf : In (norm_mf mf) vecs_mf.
Proof. destruct mf as [|m rest]; apply (in_map (fun m => [m])), all_mf_complete. Qed.

(* Only the first MAX_RENAMES rename faults and the first MAX_REMOVES remove fault of an arbitrary
   fault vector are consumed (a shorter vector behaves like one padded with "no fault"). *)
Lemma run_publish_norm o rf mf :
  valid_init o -> run_publish o rf mf = run_publish o (norm_rf rf) (norm_mf mf).
Proof.
  (* Both sides run the same program: split a fault vector only where the run consults it next.
     A run makes at most one removal, as its last operation. *)
  intros [->|[->| ->]].
  - (* no previous output: the swap-in is the only operation *)
    destruct rf as [|[] rf]; reflexivity.
  - (* move-aside; if it fails the staged copy is removed *)
    destruct rf as [|[] rf]; try reflexivity;
      [destruct mf as [|[] mf]; reflexivity| |destruct mf as [|[] mf]; reflexivity].
    (* swap-in, then the cleanup of the old copy *)
    destruct rf as [|[] rf]; try reflexivity; try (destruct mf as [|[] mf]; reflexivity).
    (* the swap-in failed: rollback, then the staged copy is removed *)
    destruct rf as [|[] rf]; try reflexivity; destruct mf as [|[] mf]; reflexivity.
  - (* an output file is refused: only the staged copy is removed *)
    destruct mf as [|[] mf]; reflexivity.
Qed.

(* the bound on the number of rename calls *)
Definition within_bound_b (r : obs) : bool := (renames_used r <=? MAX_RENAMES)%nat.

(* the three checks, evaluated inside Coq on every normalised run *)
Definition checks (o : content) (r : obs) : bool := out_safe_b o r && within_bound_b r && kept_b o r.

Lemma all_checked :
  forallb (fun o => forallb (fun rf => forallb (fun mf => checks o (run_publish o rf mf)) vecs_mf) vecs_rf) all_inits = true.
Proof. vm_compute. reflexivity. Qed.

Lemma publish_checked o rf mf :
  valid_init o ->
  let r := run_publish o rf mf in out_safe_b o r = true /\ within_bound_b r = true /\ kept_b o r = true.
Proof.
  intro Ho. cbv zeta. rewrite (run_publish_norm o rf mf Ho), <- !andb_true_iff, andb_assoc.
  pose proof all_checked as H.
  rewrite forallb_forall in H. specialize (H o (all_inits_complete o Ho)).
  rewrite forallb_forall in H. specialize (H (norm_rf rf) (norm_rf_in rf)).
  rewrite forallb_forall in H. exact (H (norm_mf mf) (norm_mf_in mf)).
Qed.

Lemma generate_ok_is_publish o rf mf : run_generate o GOk rf mf = run_publish o rf mf.
Proof. reflexivity. Qed.

(* a run that leaves the output path alone and does not report success *)
Lemma untouched_safe o r : valid_init o -> f_out (o_fs r) = o -> o_verdict r <> VOk -> out_safe o r.
Proof.
  intros Ho Hout Hv. unfold out_safe. cbv zeta. rewrite Hout. split; [auto|]. split; [congruence|]. split; [contradiction|].
  intros _. destruct Ho as [->|[->| ->]]; discriminate.
Qed.
