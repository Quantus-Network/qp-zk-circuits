(* Proofs about the encoding / compact-hash model (C25, C26). *)
From Coq Require Import Permutation Sorted.
From V.Base Require Import Common.
From V.Generated Require Import Constants.
From V.Sys Require Import Encoding.

Definition byte (b : Z) : Prop := 0 <= b < 256.
Definition u32 (x : Z) : Prop := 0 <= x < two32.
Definition u64 (x : Z) : Prop := 0 <= x < two64.
Definition u128 (x : Z) : Prop := 0 <= x < two64 * two64.

(* Fail-fast pins: every generated constant whose value the proofs below rely on.  If /repo changes one
   of them the build stops here, instead of deep inside an arithmetic proof. *)
Lemma pin_inputs_order : INPUTS_GOLDILOCKS_ORDER = 18446744069414584321. Proof. reflexivity. Qed.
Lemma pin_merkle_modulus : MERKLE_GOLDILOCKS_MODULUS = 18446744069414584321. Proof. reflexivity. Qed.
Lemma pin_core_p : POSEIDON_CORE_P = 18446744069414584321. Proof. reflexivity. Qed.
Lemma pin_field_order : FIELD_ORDER = 18446744069414584321. Proof. reflexivity. Qed.
Lemma pin_p : p = 18446744069414584321. Proof. reflexivity. Qed.
Lemma pin_mask : SER_BIT_32_LIMB_MASK = 4294967295. Proof. reflexivity. Qed.
Lemma pin_max_bytes : MAX_SERIALIZED_BYTES = 1048576. Proof. reflexivity. Qed.
Lemma pin_max_felts : MAX_SERIALIZED_FELTS = 262145. Proof. reflexivity. Qed.
Lemma pin_digest_len : DIGEST_BYTES_LEN = 32. Proof. reflexivity. Qed.
Lemma pin_quant : AMOUNT_QUANTIZATION_FACTOR = 10000000000. Proof. reflexivity. Qed.

(* The four moduli of the Rust crates are the one prime [p] and the limb mask is [two32 - 1]: the proofs
   speak of [p] and [two32] only, and unfold them where [lia] needs the value. *)
Lemma limb_mask v : (v <=? SER_BIT_32_LIMB_MASK) = (v <? two32).
Proof. apply eq_true_iff_eq. rewrite Z.leb_le, Z.ltb_lt. unfold SER_BIT_32_LIMB_MASK, two32. lia. Qed.

Lemma is_ok_if_err {A} (b : bool) (r : res A) c : is_ok (if b then r else Err c) = b && is_ok r.
Proof. destruct b; reflexivity. Qed.
Lemma if_err_ok_iff {A} (b : bool) (r : res A) c a : (if b then r else Err c) = Ok a <-> b = true /\ r = Ok a.
Proof. destruct b; intuition discriminate. Qed.
Lemma if_ok_inv {A} (b : bool) (x y : A) r : (if b then Ok x else r) = Ok y -> b = true /\ x = y \/ r = Ok y.
Proof. destruct b; [intros [= <-]|]; auto. Qed.

Lemma forallb_lt P l : forallb (fun v => v <? P) l = true <-> Forall (fun v => v < P) l.
Proof. apply forallb_Forall_iff. intros v _. apply Z.ltb_lt. Qed.

Lemma Forall_map_of {A B} (f : A -> B) (P : A -> Prop) (Q : B -> Prop) l :
  (forall x, P x -> Q (f x)) -> Forall P l -> Forall Q (map f l).
Proof. intros H F. apply Forall_map. revert F. apply Forall_impl. exact H. Qed.

Lemma mapM_guard {A} (f : A -> bool) c l :
  mapM (fun v => _ <-? guard (f v) c ;; Ok v) l = if forallb f l then Ok l else Err c.
Proof.
  induction l as [|x l IH]; [reflexivity|]. cbn [mapM forallb].
  destruct (f x); cbn [guard rbind andb]; [|reflexivity].
  rewrite IH. destruct (forallb f l); reflexivity.
Qed.

(* Canonical field values: [to_canonical] subtracts [p] once. *)

Lemma to_canonical_spec x : x < p /\ to_canonical x = x \/ p <= x /\ to_canonical x = x - p.
Proof. unfold to_canonical. change FIELD_ORDER with p. destruct (Z.leb_spec p x); auto. Qed.

Lemma to_canonical_small x : x < p -> to_canonical x = x.
Proof. intro L. destruct (to_canonical_spec x) as [[_ E]|[H _]]; [exact E|lia]. Qed.

Lemma to_canonical_fix x : to_canonical x = x -> x < p.
Proof. intro E. destruct (to_canonical_spec x) as [[H _]|[_ E']]; [exact H|unfold p in *; lia]. Qed.

Lemma to_canonical_nonneg x : 0 <= x -> 0 <= to_canonical x.
Proof. intro H. destruct (to_canonical_spec x) as [[_ ->]|[? ->]]; lia. Qed.

Lemma to_canonical_u64 x : u64 x -> u64 (to_canonical x) /\ to_canonical x < p.
Proof. intro H. destruct (to_canonical_spec x) as [[? ->]|[? ->]]; unfold u64, p, two64 in *; lia. Qed.

Lemma to_canonical_limb_iff f : u64 f -> (to_canonical f < two32 <-> (f < two32 \/ p <= f)).
Proof. intro H. destruct (to_canonical_spec f) as [[? ->]|[? ->]]; unfold u64, p, two32, two64 in *; lia. Qed.

Lemma map_to_canonical_small l : Forall (fun v => v < p) l -> map to_canonical l = l.
Proof.
  induction 1 as [|x l Hx Hl IH]; [reflexivity|]. cbn [map]. rewrite IH, to_canonical_small by assumption. reflexivity.
Qed.

Lemma map_to_canonical_fix l : map to_canonical l = l -> Forall (fun v => v < p) l.
Proof.
  induction l as [|x l IH]; [constructor|]. cbn [map]. intros [= E1 E2]. auto using to_canonical_fix.
Qed.

Lemma u32_lt_p x : u32 x -> x < p.
Proof. unfold u32, p, two32. lia. Qed.

Lemma u32_mod x : u32 (x mod two32).
Proof. apply Z.mod_pos_bound. reflexivity. Qed.

Lemma to_le_length n x : length (to_le n x) = n.
Proof. revert x; induction n as [|n IH]; intro x; cbn [to_le length]; [reflexivity|now rewrite IH]. Qed.

Lemma zlen_to_le n x : zlen (to_le n x) = Z.of_nat n.
Proof. unfold zlen. now rewrite to_le_length. Qed.

Lemma byte_mod x : byte (x mod 256).
Proof. apply Z.mod_pos_bound. reflexivity. Qed.

Lemma to_le_bytes n x : Forall byte (to_le n x).
Proof. revert x; induction n as [|n IH]; intro x; cbn [to_le]; constructor; [apply byte_mod|apply IH]. Qed.

Lemma le_bound c : Forall byte c -> 0 <= le c < 256 ^ zlen c.
Proof.
  induction 1 as [|b c Hb Hc IH].
  - cbn. lia.
  - cbn [le]. rewrite zlen_cons. pose proof (zlen_nonneg c).
    rewrite Z.pow_add_r by lia. change (256 ^ 1) with 256. unfold byte in Hb. lia.
Qed.

Lemma to_le_le c : Forall byte c -> to_le (length c) (le c) = c.
Proof.
  induction 1 as [|b c Hb Hc IH]; [reflexivity|].
  cbn [length to_le le]. unfold byte in Hb.
  replace ((b + 256 * le c) mod 256) with b by lia.
  replace ((b + 256 * le c) / 256) with (le c) by lia.
  now rewrite IH.
Qed.

Lemma le_to_le n x : 0 <= x < 256 ^ Z.of_nat n -> le (to_le n x) = x.
Proof.
  revert x; induction n as [|n IH]; intros x Hx.
  - cbn in *. lia.
  - cbn [to_le le]. rewrite Nat2Z.inj_succ, Z.pow_succ_r in Hx by lia.
    rewrite IH; lia.
Qed.

Lemma le_inj c d : length c = length d -> Forall byte c -> Forall byte d -> le c = le d -> c = d.
Proof.
  intros L Hc Hd E. rewrite <- (to_le_le c Hc), <- (to_le_le d Hd), L, E. reflexivity.
Qed.

Lemma byte0 : byte 0. Proof. unfold byte; lia. Qed.
Lemma byte1 : byte 1. Proof. unfold byte; lia. Qed.

Lemma to_le4_le a b c d : byte a -> byte b -> byte c -> byte d -> to_le 4 (le [a; b; c; d]) = [a; b; c; d].
Proof. intros. apply (to_le_le [a; b; c; d]). auto. Qed.

(* Edge encoding: four bytes per word; the last word carries the remainder and the marker *)

Lemma list_ind4 (P : list Z -> Prop) :
  P [] -> (forall a, P [a]) -> (forall a b, P [a; b]) -> (forall a b c, P [a; b; c]) ->
  (forall a b c d r, P r -> P (a :: b :: c :: d :: r)) -> forall l, P l.
Proof.
  intros H0 H1 H2 H3 H4. fix IH 1.
  intros [|a [|b [|c [|d r]]]].
  - exact H0.
  - apply H1.
  - apply H2.
  - apply H3.
  - apply H4. apply IH.
Qed.

Lemma bytes_ind4 (P : list Z -> Prop) :
  P [] -> (forall a, byte a -> P [a]) -> (forall a b, byte a -> byte b -> P [a; b]) ->
  (forall a b c, byte a -> byte b -> byte c -> P [a; b; c]) ->
  (forall a b c d r, byte a -> byte b -> byte c -> byte d -> Forall byte r -> P r -> P (a :: b :: c :: d :: r)) ->
  forall l, Forall byte l -> P l.
Proof.
  intros H0 H1 H2 H3 H4 l.
  induction l as [|a|a b|a b c|a b c d r IH] using list_ind4; rewrite ?Forall_cons_iff; intuition.
Qed.

Lemma encode_raw_nonempty bs : encode_raw bs <> [].
Proof. destruct bs as [|a [|b [|c [|d r]]]]; discriminate. Qed.

Lemma encode_raw_u32 bs : Forall byte bs -> Forall u32 (encode_raw bs).
Proof.
  revert bs. apply bytes_ind4; intros; cbn [encode_raw];
    (constructor; [apply (le_bound [_; _; _; _]); auto using byte0, byte1|auto]).
Qed.

Lemma encode_raw_len bs : zlen (encode_raw bs) = zlen bs / 4 + 1.
Proof.
  induction bs as [|a|a b|a b c|a b c d r IH] using list_ind4; try reflexivity.
  cbn [encode_raw]. rewrite !zlen_cons, IH. pose proof (zlen_nonneg r). lia.
Qed.

Lemma decode_words_cons w r : r <> [] ->
  decode_words (w :: r) = (t <-? decode_words r ;; Ok (to_le 4 w ++ t)).
Proof. destruct r; [contradiction|reflexivity]. Qed.

Lemma decode_words_encode bs : Forall byte bs -> decode_words (encode_raw bs) = Ok bs.
Proof.
  revert bs. apply bytes_ind4;
    [reflexivity|intros a Ha|intros a b Ha Hb|intros a b c Ha Hb Hc|intros a b c d r Ha Hb Hc Hd Hr IH].
  1-3: cbn [encode_raw decode_words]; unfold decode_last; rewrite to_le4_le by auto using byte0, byte1;
    unfold strip_marker; cbn [Z.eqb andb]; rewrite !andb_false_r; reflexivity.
  cbn [encode_raw]. rewrite decode_words_cons, IH by apply encode_raw_nonempty. cbn [rbind].
  rewrite to_le4_le by assumption. reflexivity.
Qed.

(* the if-chain of [strip_marker] is followed branch by branch: a branch taken fixes the marker
   byte and the zero bytes behind it *)
Lemma strip_marker_sound b0 b1 b2 b3 bs : byte b0 -> byte b1 -> byte b2 -> byte b3 ->
  strip_marker b0 b1 b2 b3 = Ok bs -> [le [b0; b1; b2; b3]] = encode_raw bs /\ Forall byte bs.
Proof.
  intros B0 B1 B2 B3 H. unfold strip_marker in H.
  repeat (apply if_ok_inv in H as [[E <-]|H];
          [rewrite ?andb_true_iff, !Z.eqb_eq in E; intuition (subst; auto)|]).
  discriminate.
Qed.

Lemma decode_words_sound ws : forall bs, Forall u32 ws -> decode_words ws = Ok bs ->
  ws = encode_raw bs /\ Forall byte bs.
Proof.
  induction ws as [|w r IH]; intros bs HU HD; [discriminate|].
  apply Forall_cons_iff in HU. destruct HU as [Hw Hr].
  destruct r as [|w' r'].
  - rewrite <- (le_to_le 4 w Hw). apply strip_marker_sound; [apply byte_mod ..|exact HD].
  - rewrite decode_words_cons in HD by discriminate.
    apply rbind_ok_iff in HD. destruct HD as (t & Ht & [= <-]).
    destruct (IH t Hr Ht) as [E Bt]. split.
    + cbn [to_le app encode_raw]. rewrite <- E. f_equal. symmetry. exact (le_to_le 4 w Hw).
    + apply (Forall_app byte (to_le 4 w) t). split; [apply to_le_bytes|assumption].
Qed.

Lemma strip_marker_safe b0 b1 b2 b3 : safe (strip_marker b0 b1 b2 b3).
Proof. unfold strip_marker. repeat apply safe_if; try apply safe_ok. apply safe_err. discriminate. Qed.

Lemma decode_words_safe ws : ws <> [] -> safe (decode_words ws).
Proof.
  induction ws as [|w r IH]; intro NE; [contradiction|].
  destruct r as [|w' r']; [apply strip_marker_safe|].
  rewrite decode_words_cons by discriminate.
  apply safe_bind; [apply IH; discriminate|]. intros. apply safe_ok.
Qed.

Lemma u64s_to_bytes_ok ws bs :
  u64s_to_bytes ws = Ok bs <-> (ws <> [] /\ Forall (fun v => v < two32) ws /\ decode_words ws = Ok bs).
Proof.
  unfold u64s_to_bytes.
  rewrite !guard_bind_ok_iff, negb_true_iff, Nat.eqb_neq, length_zero_iff_nil.
  rewrite (forallb_Forall_iff _ (fun v => v < two32)); [reflexivity|].
  intros v _. rewrite limb_mask. apply Z.ltb_lt.
Qed.

Lemma u64s_to_bytes_encode bs : Forall byte bs -> u64s_to_bytes (encode_raw bs) = Ok bs.
Proof.
  intro B. apply u64s_to_bytes_ok. split; [apply encode_raw_nonempty|]. split; [|apply decode_words_encode, B].
  generalize (encode_raw_u32 bs B). apply Forall_impl. unfold u32. tauto.
Qed.

(* decode on canonical words: complete characterisation for non-negative words *)
Lemma u64s_to_bytes_spec ws bs : Forall (fun v => 0 <= v) ws ->
  (u64s_to_bytes ws = Ok bs <-> (ws = encode_raw bs /\ Forall byte bs)).
Proof.
  intro NN. split.
  - intro H. apply u64s_to_bytes_ok in H. destruct H as (_ & F & D).
    apply decode_words_sound; [exact (Forall_and NN F)|exact D].
  - intros [-> B]. apply u64s_to_bytes_encode, B.
Qed.

Lemma bytes_to_felts_spec bs :
  bytes_to_felts bs = if zlen bs <=? 1048576 then Ok (encode_raw bs) else Err 1.
Proof. unfold bytes_to_felts, MAX_SERIALIZED_BYTES. destruct (zlen bs <=? 1048576); reflexivity. Qed.

Lemma edge_encode_accepts bs : zlen bs <= 1048576 ->
  bytes_to_felts bs = Ok (encode_raw bs) /\ zlen (encode_raw bs) = zlen bs / 4 + 1 /\
  zlen (encode_raw bs) <= 262145.
Proof.
  intro L. rewrite bytes_to_felts_spec, (proj2 (Z.leb_le _ _) L), encode_raw_len.
  split; [reflexivity|]. split; [reflexivity|lia].
Qed.

Lemma edge_encode_rejects_iff bs : is_ok (bytes_to_felts bs) = false <-> 1048576 < zlen bs.
Proof. rewrite bytes_to_felts_spec, is_ok_if_err. cbn [is_ok]. rewrite andb_true_r. apply Z.leb_gt. Qed.

Lemma edge_decode_cap raw : 262145 < zlen raw -> felts_to_bytes raw = Err 1.
Proof. intro H. apply guard_bind_false, Z.leb_gt. exact H. Qed.

Lemma felts_to_bytes_spec raw bs : Forall (fun v => 0 <= v) raw ->
  (felts_to_bytes raw = Ok bs <->
   (zlen raw <= 262145 /\ map to_canonical raw = encode_raw bs /\ Forall byte bs)).
Proof.
  intro NN. unfold felts_to_bytes.
  rewrite guard_bind_ok_iff, Z.leb_le, u64s_to_bytes_spec; [reflexivity|].
  revert NN. apply Forall_map_of, to_canonical_nonneg.
Qed.

Lemma felts_to_bytes_safe raw : safe (felts_to_bytes raw).
Proof.
  unfold felts_to_bytes, u64s_to_bytes.
  apply safe_guard_bind; [discriminate|intros _].
  apply safe_guard_bind; [discriminate|intro NE].
  apply safe_guard_bind; [discriminate|intros _].
  apply decode_words_safe. destruct (map to_canonical raw); [discriminate NE|discriminate].
Qed.

Lemma edge_roundtrip bs : Forall byte bs -> zlen bs <= 1048576 ->
  (fs <-? bytes_to_felts bs ;; felts_to_bytes fs) = Ok bs.
Proof.
  intros B L. destruct (edge_encode_accepts bs L) as (-> & _ & C). cbn [rbind].
  unfold felts_to_bytes. rewrite guard_bind_true by apply Z.leb_le, C.
  rewrite map_to_canonical_small by (generalize (encode_raw_u32 bs B); apply Forall_impl, u32_lt_p).
  apply u64s_to_bytes_encode, B.
Qed.

Lemma encode_raw_inj a b : Forall byte a -> Forall byte b -> encode_raw a = encode_raw b -> a = b.
Proof.
  intros Ha Hb E. pose proof (decode_words_encode a Ha) as Da. rewrite E, (decode_words_encode b Hb) in Da.
  inversion Da; reflexivity.
Qed.

Lemma edge_injective a b fa fb : Forall byte a -> Forall byte b ->
  bytes_to_felts a = Ok fa -> bytes_to_felts b = Ok fb -> fa = fb -> a = b.
Proof.
  unfold bytes_to_felts. intros Ha Hb Ea Eb E.
  apply guard_bind_ok_iff in Ea, Eb. apply encode_raw_inj; try assumption. intuition congruence.
Qed.

Inductive aligned8 : list Z -> Prop :=
| a8_nil : aligned8 []
| a8_cons c r : length c = 8%nat -> aligned8 r -> aligned8 (c ++ r).

Lemma aligned8_of_len n : forall bs, length bs = (8 * n)%nat -> aligned8 bs.
Proof.
  induction n as [|n IH]; intros bs L.
  - destruct bs; [constructor|discriminate].
  - rewrite <- (firstn_skipn 8 bs). constructor.
    + rewrite firstn_length. lia.
    + apply IH. rewrite skipn_length. lia.
Qed.

Lemma aligned8_iff bs : aligned8 bs <-> zlen bs mod 8 = 0.
Proof.
  split.
  - induction 1 as [|c r L A IH]; [reflexivity|]. rewrite zlen_app. unfold zlen at 1. rewrite L.
    change (Z.of_nat 8) with 8. lia.
  - intro H. apply (aligned8_of_len (Z.to_nat (zlen bs / 8))). unfold zlen in *. lia.
Qed.

Lemma aligned8_32 bs : zlen bs = 32 -> aligned8 bs.
Proof. intro L. apply aligned8_iff. rewrite L. reflexivity. Qed.

Lemma limbs8_app8 c r : length c = 8%nat -> limbs8 (c ++ r) = le c :: limbs8 r.
Proof.
  intro L. do 8 (destruct c as [|? c]; [discriminate|]). destruct c; [|discriminate]. reflexivity.
Qed.

Lemma limbs8_app_aligned a b : aligned8 a -> limbs8 (a ++ b) = limbs8 a ++ limbs8 b.
Proof.
  induction 1 as [|c r L A IH]; [reflexivity|].
  rewrite <- app_assoc, (limbs8_app8 c (r ++ b)), (limbs8_app8 c r), IH by assumption. reflexivity.
Qed.

Lemma limbs8_flat ls : Forall u64 ls -> limbs8 (flat_map (to_le 8) ls) = ls.
Proof.
  induction 1 as [|x l Hx Hl IH]; [reflexivity|]. cbn [flat_map].
  rewrite limbs8_app8, (le_to_le 8), IH by (assumption || apply to_le_length). reflexivity.
Qed.

Lemma flat_limbs8 bs : aligned8 bs -> Forall byte bs -> flat_map (to_le 8) (limbs8 bs) = bs.
Proof.
  induction 1 as [|c r L A IH]; intro B; [reflexivity|].
  apply Forall_app in B. destruct B as [Bc Br].
  rewrite limbs8_app8 by assumption. cbn [flat_map]. rewrite IH by assumption.
  rewrite <- L, to_le_le by assumption. reflexivity.
Qed.

Lemma limbs8_u64 bs : aligned8 bs -> Forall byte bs -> Forall u64 (limbs8 bs).
Proof.
  induction 1 as [|c r L A IH]; intro B; [constructor|].
  apply Forall_app in B. destruct B as [Bc Br].
  rewrite limbs8_app8 by assumption. constructor; [|apply IH; assumption].
  pose proof (le_bound c Bc) as H. unfold zlen in H. rewrite L in H. exact H.
Qed.

Lemma limbs8_len bs : aligned8 bs -> zlen bs = 8 * zlen (limbs8 bs).
Proof.
  induction 1 as [|c r L A IH]; [reflexivity|].
  rewrite limbs8_app8 by assumption. rewrite zlen_app, zlen_cons, IH. unfold zlen at 1. rewrite L. lia.
Qed.

Lemma flat_to_le8_aligned ls : aligned8 (flat_map (to_le 8) ls).
Proof. induction ls as [|x l IH]; [constructor|]. cbn [flat_map]. constructor; [apply to_le_length|exact IH]. Qed.

Lemma zlen_flat_to_le8 ls : zlen (flat_map (to_le 8) ls) = 8 * zlen ls.
Proof.
  induction ls as [|x l IH]; [reflexivity|]. cbn [flat_map]. rewrite zlen_app, zlen_to_le, zlen_cons, IH. lia.
Qed.

Lemma limbs8_inj a b : aligned8 a -> aligned8 b -> Forall byte a -> Forall byte b ->
  limbs8 a = limbs8 b -> a = b.
Proof.
  intros Aa Ab Ba Bb E. rewrite <- (flat_limbs8 a Aa Ba), <- (flat_limbs8 b Ab Bb), E. reflexivity.
Qed.

Lemma flat_to_le8_inj xs ys : Forall u64 xs -> Forall u64 ys ->
  flat_map (to_le 8) xs = flat_map (to_le 8) ys -> xs = ys.
Proof.
  intros Hx Hy E. rewrite <- (limbs8_flat xs Hx), <- (limbs8_flat ys Hy), E. reflexivity.
Qed.

Lemma app_inj_len {A} (a b c d : list A) : length a = length b -> a ++ c = b ++ d -> a = b /\ c = d.
Proof. apply app_inj_length. Qed.

Lemma digest_try_from_ok bs out :
  bytes_digest_try_from bs = Ok out <-> (out = bs /\ zlen bs = 32 /\ Forall (fun v => v < p) (limbs8 bs)).
Proof.
  unfold bytes_digest_try_from. change INPUTS_GOLDILOCKS_ORDER with p. change DIGEST_BYTES_LEN with 32.
  rewrite !guard_bind_ok_iff, Z.eqb_eq, forallb_lt. intuition congruence.
Qed.
Lemma digest_try_from_id c d : bytes_digest_try_from c = Ok d -> d = c.
Proof. intro E. apply digest_try_from_ok in E. apply E. Qed.

Lemma digest_accept_iff bs :
  is_ok (bytes_digest_try_from bs) = true <-> zlen bs = 32 /\ Forall (fun v => v < p) (limbs8 bs).
Proof.
  rewrite is_ok_iff. split.
  - intros [out E]. apply digest_try_from_ok in E. tauto.
  - intro H. exists bs. apply digest_try_from_ok. tauto.
Qed.

Lemma digest_try_from_safe bs : safe (bytes_digest_try_from bs).
Proof. repeat (apply safe_guard_bind; [discriminate|intros _]). apply safe_ok. Qed.

Lemma digest_wrong_len bs : zlen bs <> 32 -> bytes_digest_try_from bs = Err 1.
Proof. intro L. apply guard_bind_false, Z.eqb_neq. exact L. Qed.

Lemma limbs4_flat l0 l1 l2 l3 :
  to_le 8 l0 ++ to_le 8 l1 ++ to_le 8 l2 ++ to_le 8 l3 = flat_map (to_le 8) [l0; l1; l2; l3].
Proof. cbn [flat_map]. rewrite app_nil_r. reflexivity. Qed.

Lemma digest_limbs_accept_iff l0 l1 l2 l3 : u64 l0 -> u64 l1 -> u64 l2 -> u64 l3 ->
  (is_ok (bytes_digest_try_from (to_le 8 l0 ++ to_le 8 l1 ++ to_le 8 l2 ++ to_le 8 l3)) = true <->
   (l0 < p /\ l1 < p /\ l2 < p /\ l3 < p)).
Proof.
  intros U0 U1 U2 U3.
  rewrite limbs4_flat, digest_accept_iff, limbs8_flat, zlen_flat_to_le8, !Forall_cons_iff by auto.
  intuition.
Qed.

(* a 32-byte string is four 8-byte little-endian limbs *)
Lemma digest_bytes_limbs bs : Forall byte bs -> zlen bs = 32 ->
  exists l0 l1 l2 l3, u64 l0 /\ u64 l1 /\ u64 l2 /\ u64 l3 /\
                      bs = to_le 8 l0 ++ to_le 8 l1 ++ to_le 8 l2 ++ to_le 8 l3.
Proof.
  intros B L. pose proof (aligned8_32 bs L) as A.
  pose proof (limbs8_u64 bs A B) as U. pose proof (flat_limbs8 bs A B) as F.
  pose proof (limbs8_len bs A) as LL.
  destruct (length4_inv (limbs8 bs)) as (l0 & l1 & l2 & l3 & E); [unfold zlen in *; lia|].
  rewrite E, <- ?limbs4_flat, !Forall_cons_iff in *.
  exists l0, l1, l2, l3. intuition.
Qed.

Lemma digest_to_bytes_map raw : digest_to_bytes raw = flat_map (to_le 8) (map to_canonical raw).
Proof. unfold digest_to_bytes. induction raw as [|x l IH]; [reflexivity|]. cbn [flat_map map]. rewrite IH. reflexivity. Qed.

Lemma digest_roundtrip bs out : Forall byte bs -> bytes_digest_try_from bs = Ok out ->
  digest_to_bytes (bytes_to_digest bs) = bs.
Proof.
  intros B H. apply digest_try_from_ok in H. destruct H as [_ [L F]].
  rewrite digest_to_bytes_map. unfold bytes_to_digest. rewrite map_to_canonical_small by assumption.
  apply flat_limbs8; [apply aligned8_32|]; assumption.
Qed.

(* a 32-byte string that is NOT accepted does not survive the trip through felts *)
Lemma digest_roundtrip_only_accepted bs : Forall byte bs -> zlen bs = 32 ->
  digest_to_bytes (bytes_to_digest bs) = bs -> bytes_digest_try_from bs = Ok bs.
Proof.
  intros B L E. apply digest_try_from_ok. split; [reflexivity|]. split; [assumption|].
  pose proof (aligned8_32 bs L) as A. pose proof (limbs8_u64 bs A B) as U.
  rewrite digest_to_bytes_map in E. unfold bytes_to_digest in E.
  rewrite <- (flat_limbs8 bs A B) in E at 2.
  apply map_to_canonical_fix, flat_to_le8_inj; [|exact U|exact E].
  revert U. apply Forall_map_of. intros x Hx. apply to_canonical_u64, Hx.
Qed.

Lemma digest_felts_valid raw : length raw = 4%nat -> Forall u64 raw ->
  utils_digest_to_bytes raw = Ok (digest_to_bytes raw) /\
  bytes_to_digest (digest_to_bytes raw) = map to_canonical raw.
Proof.
  intros L U.
  assert (UC : Forall (fun x => u64 x /\ x < p) (map to_canonical raw))
    by (revert U; apply Forall_map_of, to_canonical_u64).
  apply Forall_and_inv in UC. destruct UC as [UC PC].
  assert (E : limbs8 (digest_to_bytes raw) = map to_canonical raw).
  { rewrite digest_to_bytes_map. apply limbs8_flat, UC. }
  split; [|exact E]. unfold utils_digest_to_bytes.
  rewrite (proj2 (digest_try_from_ok (digest_to_bytes raw) (digest_to_bytes raw))); [reflexivity|].
  split; [reflexivity|]. split; [|rewrite E; exact PC].
  rewrite digest_to_bytes_map, zlen_flat_to_le8, zlen_map. unfold zlen. rewrite L. reflexivity.
Qed.

(* Integer limb codecs.  Positional notation in a base [B]: one step of joining and of splitting;
   the codecs iterate it with B = 2^32. *)

Lemma div_mod_join B n : 0 < B -> n / B * B + n mod B = n.
Proof. intro HB. rewrite (Z.div_mod n B) at 3 by lia. ring. Qed.
Lemma div_bound B M n : 0 < B -> 0 <= n < B * M -> 0 <= n / B < M.
Proof. intros HB H. split; [apply Z.div_pos; lia|apply Z.div_lt_upper_bound; lia]. Qed.
Lemma join_div B h l : 0 <= l < B -> (h * B + l) / B = h.
Proof. intro H. rewrite Z.div_add_l, Z.div_small by lia. ring. Qed.
Lemma join_mod B h l : 0 <= l < B -> (h * B + l) mod B = l.
Proof. intro H. rewrite Z.add_comm, Z.mod_add, Z.mod_small by lia. reflexivity. Qed.
Lemma join_bound B M h l : 0 <= h < M -> 0 <= l < B -> 0 <= h * B + l < B * M.
Proof. nia. Qed.

Lemma limb_bind {B} v (k : Z -> res B) :
  (l <-? as_32_bit_limb v ;; k l) = if v <? two32 then k v else Err 5.
Proof. unfold as_32_bit_limb. rewrite limb_mask. destruct (v <? two32); reflexivity. Qed.

Lemma limb_bind_u32 {B} v (k : Z -> res B) : u32 v -> (l <-? as_32_bit_limb (to_canonical v) ;; k l) = k v.
Proof.
  intro U. rewrite to_canonical_small, limb_bind, (proj2 (Z.ltb_lt _ _)) by (apply U || apply u32_lt_p, U).
  reflexivity.
Qed.

Lemma limb_bind_ok {B} v (k : Z -> res B) r : (l <-? as_32_bit_limb v ;; k l) = Ok r -> v < two32 /\ k v = Ok r.
Proof. rewrite limb_bind. destruct (Z.ltb_spec v two32); [auto|discriminate]. Qed.

Lemma u64_accept_iff f0 f1 :
  is_ok (try_felts_to_u64 [f0; f1]) = true <-> (to_canonical f0 < two32 /\ to_canonical f1 < two32).
Proof.
  unfold try_felts_to_u64. cbn [map]. repeat (rewrite limb_bind, is_ok_if_err; cbv beta). cbn [is_ok].
  rewrite andb_true_r, andb_true_iff, !Z.ltb_lt. reflexivity.
Qed.

Lemma u64_safe f0 f1 : safe (try_felts_to_u64 [f0; f1]).
Proof.
  unfold try_felts_to_u64. cbn [map]. repeat (rewrite limb_bind; cbv beta).
  repeat apply safe_if; try (apply safe_err; discriminate). apply safe_ok.
Qed.

Lemma u64_encode_decode n : u64 n -> try_felts_to_u64 (u64_to_felts n) = Ok n.
Proof.
  intro H. unfold try_felts_to_u64, u64_to_felts. cbn [map].
  pose proof (div_bound two32 two32 n eq_refl H) as H1.
  rewrite (Z.mod_small (n / two32)) by exact H1.
  repeat (rewrite limb_bind_u32 by (exact H1 || apply u32_mod); cbv beta).
  rewrite div_mod_join by reflexivity. reflexivity.
Qed.

Lemma u64_decode_encode f0 f1 n : 0 <= f0 -> 0 <= f1 -> try_felts_to_u64 [f0; f1] = Ok n ->
  u64 n /\ u64_to_felts n = [to_canonical f0; to_canonical f1].
Proof.
  intros N0 N1 E. apply to_canonical_nonneg in N0, N1.
  unfold try_felts_to_u64 in E. cbn [map] in E.
  apply limb_bind_ok in E as [A E]. apply limb_bind_ok in E as [B [= <-]]. unfold u64_to_felts.
  split; [unfold u64; change two64 with (two32 * two32); apply join_bound; auto|].
  rewrite join_div, join_mod, Z.mod_small by auto. reflexivity.
Qed.

Lemma u128_accept_iff f0 f1 f2 f3 :
  is_ok (try_felts_to_u128 [f0; f1; f2; f3]) = true <->
  (to_canonical f0 < two32 /\ to_canonical f1 < two32 /\ to_canonical f2 < two32 /\ to_canonical f3 < two32).
Proof.
  unfold try_felts_to_u128. cbn [map]. repeat (rewrite limb_bind, is_ok_if_err; cbv beta). cbn [is_ok].
  rewrite andb_true_r, !andb_true_iff, !Z.ltb_lt. reflexivity.
Qed.

Lemma u128_safe f0 f1 f2 f3 : safe (try_felts_to_u128 [f0; f1; f2; f3]).
Proof.
  unfold try_felts_to_u128. cbn [map]. repeat (rewrite limb_bind; cbv beta).
  repeat apply safe_if; try (apply safe_err; discriminate). apply safe_ok.
Qed.

Lemma u128_encode_decode n : u128 n -> try_felts_to_u128 (u128_to_felts n) = Ok n.
Proof.
  intro H. unfold try_felts_to_u128, u128_to_felts. cbn [map].
  rewrite <- !Z.div_div by easy.
  unfold u128 in H. change (two64 * two64) with (two32 * (two32 * (two32 * two32))) in H.
  pose proof (div_bound two32 _ n eq_refl H) as H1.
  pose proof (div_bound two32 _ _ eq_refl H1) as H2.
  pose proof (div_bound two32 _ _ eq_refl H2) as H3.
  rewrite (Z.mod_small (n / two32 / two32 / two32)) by exact H3.
  repeat (rewrite limb_bind_u32 by (exact H3 || apply u32_mod); cbv beta).
  rewrite !div_mod_join by reflexivity. reflexivity.
Qed.

Lemma u128_decode_encode f0 f1 f2 f3 n : 0 <= f0 -> 0 <= f1 -> 0 <= f2 -> 0 <= f3 ->
  try_felts_to_u128 [f0; f1; f2; f3] = Ok n ->
  u128 n /\ u128_to_felts n = [to_canonical f0; to_canonical f1; to_canonical f2; to_canonical f3].
Proof.
  intros N0 N1 N2 N3 E. apply to_canonical_nonneg in N0, N1, N2, N3.
  unfold try_felts_to_u128 in E. cbn [map] in E.
  apply limb_bind_ok in E as [A E]. apply limb_bind_ok in E as [B E].
  apply limb_bind_ok in E as [C E]. apply limb_bind_ok in E as [D [= <-]].
  unfold u128_to_felts. split.
  - unfold u128. change (two64 * two64) with (two32 * (two32 * (two32 * two32))).
    repeat apply join_bound; auto.
  - rewrite <- !Z.div_div by easy.
    rewrite !join_div, !join_mod, Z.mod_small by auto. reflexivity.
Qed.

Lemma quantize_spec num :
  try_u128_to_quantized_felt num =
  (if 4294967295 <? num / 10000000000 then Err 6 else Ok (num / 10000000000)).
Proof.
  unfold try_u128_to_quantized_felt, SER_BIT_32_LIMB_MASK, AMOUNT_QUANTIZATION_FACTOR.
  destruct (4294967295 <? num / 10000000000); reflexivity.
Qed.

Lemma quantize_fails_iff num : 0 <= num ->
  (is_ok (try_u128_to_quantized_felt num) = false <-> 4294967295 < num / 10000000000) /\
  (4294967295 < num / 10000000000 <-> 42949672960000000000 <= num).
Proof.
  intro H. rewrite quantize_spec. split; [|lia].
  rewrite <- Z.ltb_lt. destruct (4294967295 <? num / 10000000000); cbn [is_ok]; split; congruence.
Qed.

Lemma quantize_roundtrip num q : 0 <= num -> try_u128_to_quantized_felt num = Ok q ->
  q = num / 10000000000 /\ u32 q /\ try_felt_to_quantized_u128 q = Ok (num - num mod 10000000000).
Proof.
  intro H. rewrite quantize_spec.
  destruct (Z.ltb_spec 4294967295 (num / 10000000000)); [discriminate|]. intros [= <-].
  assert (U : u32 (num / 10000000000)) by (unfold u32, two32; lia).
  split; [reflexivity|]. split; [exact U|].
  unfold try_felt_to_quantized_u128, AMOUNT_QUANTIZATION_FACTOR.
  rewrite limb_bind_u32 by exact U. f_equal. rewrite Z.mod_eq by easy. ring.
Qed.

Lemma compact_preimage_spec bs :
  compact_preimage bs =
  if zlen bs <=? 1048576 then
    if zlen bs mod 8 =? 0 then
      if forallb (fun v => v <? p) (limbs8 bs) then Ok (limbs8 bs) else Err 3
    else Err 2
  else Err 1.
Proof.
  unfold compact_preimage, bytes_to_felts_compact_strict, canonical_limb, MAX_SERIALIZED_BYTES.
  rewrite mapM_guard. change POSEIDON_CORE_P with p.
  destruct (zlen bs <=? 1048576); [|reflexivity]. destruct (zlen bs mod 8 =? 0); reflexivity.
Qed.

Lemma compact_preimage_ok bs f :
  compact_preimage bs = Ok f <->
  (f = limbs8 bs /\ zlen bs <= 1048576 /\ zlen bs mod 8 = 0 /\ Forall (fun v => v < p) (limbs8 bs)).
Proof.
  rewrite compact_preimage_spec, !if_err_ok_iff, Z.leb_le, Z.eqb_eq, forallb_lt. intuition congruence.
Qed.

Lemma compact_preimage_safe bs : safe (compact_preimage bs).
Proof.
  rewrite compact_preimage_spec. repeat apply safe_if; try (apply safe_err; discriminate). apply safe_ok.
Qed.

Lemma compact_accept_iff H bs :
  is_ok (hash_bytes_compact H bs) = true <->
  (zlen bs <= 1048576 /\ zlen bs mod 8 = 0 /\ Forall (fun v => v < p) (limbs8 bs)).
Proof.
  unfold hash_bytes_compact. rewrite is_ok_iff. split.
  - intros [h E]. apply rbind_ok_iff in E. destruct E as (f & E & _). apply compact_preimage_ok in E. tauto.
  - intro A. exists (hash_to_bytes H (limbs8 bs)). rewrite (proj2 (compact_preimage_ok bs (limbs8 bs))); [reflexivity|tauto].
Qed.

Lemma compact_safe H bs : safe (hash_bytes_compact H bs).
Proof. apply safe_bind; [apply compact_preimage_safe|]. intros. apply safe_ok. Qed.

Lemma compact_encoding_injective a b fa fb : Forall byte a -> Forall byte b ->
  compact_preimage a = Ok fa -> compact_preimage b = Ok fb -> fa = fb -> a = b.
Proof.
  intros Ba Bb Ea Eb E. apply compact_preimage_ok in Ea, Eb.
  destruct Ea as [-> [_ [Aa _]]]. destruct Eb as [-> [_ [Ab _]]].
  apply limbs8_inj; try assumption; apply aligned8_iff; assumption.
Qed.

Lemma compact_hash_injective_cr H a b ha hb : Forall byte a -> Forall byte b ->
  (forall x y, hash_to_bytes H x = hash_to_bytes H y -> x = y) ->
  hash_bytes_compact H a = Ok ha -> hash_bytes_compact H b = Ok hb -> ha = hb -> a = b.
Proof.
  intros Ba Bb CR Ea Eb E. unfold hash_bytes_compact in *.
  apply rbind_ok_iff in Ea, Eb. destruct Ea as (fa & Pa & [= <-]). destruct Eb as (fb & Pb & [= <-]).
  eapply compact_encoding_injective; eauto.
Qed.

(* The byte-lexicographic order is total, antisymmetric and transitive, so the sorted arrangement of
   a list is unique *)

Definition lex_le (a b : list Z) : Prop := lex_leb a b = true.

Lemma lex_leb_cons x a y b : lex_leb (x :: a) (y :: b) = true <-> x < y \/ x = y /\ lex_leb a b = true.
Proof.
  cbn [lex_leb]. destruct (Z.ltb_spec x y); [intuition|].
  destruct (Z.ltb_spec y x); [intuition (lia || discriminate)|]. intuition lia.
Qed.

Lemma lex_total a : forall b, lex_leb a b = true \/ lex_leb b a = true.
Proof.
  induction a as [|x a IH]; intros [|y b]; auto. rewrite !lex_leb_cons.
  destruct (Z.lt_trichotomy x y) as [|[->|]], (IH b); auto.
Qed.

Lemma lex_antisym a : forall b, lex_leb a b = true -> lex_leb b a = true -> a = b.
Proof.
  induction a as [|x a IH]; intros [|y b]; try discriminate; [reflexivity|]. rewrite !lex_leb_cons.
  intros [?|[-> H1]] [?|[? H2]]; try lia. f_equal. apply IH; assumption.
Qed.

Lemma lex_trans a : forall b c, lex_leb a b = true -> lex_leb b c = true -> lex_leb a c = true.
Proof.
  induction a as [|x a IH]; intros [|y b] [|z c]; try discriminate; try reflexivity. rewrite !lex_leb_cons.
  intros [?|[-> H1]] [?|[-> H2]]; [left; lia|auto|auto|eauto].
Qed.

Lemma lex_refl a : lex_leb a a = true.
Proof. destruct (lex_total a a); assumption. Qed.

(* [sort_children] is [isort_by lex_leb], by conversion *)
Lemma sort_perm l : Permutation (sort_children l) l.
Proof. exact (isort_by_perm lex_leb l). Qed.

Lemma sort_sorted l : StronglySorted lex_le (sort_children l).
Proof. exact (isort_by_sorted lex_leb lex_total lex_trans l). Qed.

Lemma sort_unique l s : Permutation s l -> StronglySorted lex_le s -> sort_children l = s.
Proof. exact (isort_by_unique lex_leb lex_total lex_trans l s (fun a b _ _ => lex_antisym a b)). Qed.

Lemma node_order_independent H c1 c2 : Permutation c1 c2 -> hash_node H c1 = hash_node H c2.
Proof.
  intro P. unfold hash_node. rewrite (sort_unique c1 (sort_children c2)); [reflexivity| |apply sort_sorted].
  rewrite sort_perm. symmetry. exact P.
Qed.

Lemma node_presorted_on_sorted H cs : StronglySorted lex_le cs -> hash_node H cs = hash_node_presorted H cs.
Proof.
  intro S. unfold hash_node, hash_node_presorted. rewrite (sort_unique cs cs (Permutation_refl cs) S). reflexivity.
Qed.

Lemma node_is_presorted_of_sort H cs : hash_node H cs = hash_node_presorted H (sort_children cs).
Proof. reflexivity. Qed.

Lemma concat_len32 (cs : list (list Z)) : Forall (fun c => zlen c = 32) cs -> zlen (concat cs) = 32 * zlen cs.
Proof.
  induction 1 as [|c cs Hc Hcs IH]; [reflexivity|]. cbn [concat]. rewrite zlen_app, zlen_cons, IH, Hc. lia.
Qed.

Lemma limbs8_concat32 (cs : list (list Z)) : Forall (fun c => zlen c = 32) cs -> limbs8 (concat cs) = flat_map limbs8 cs.
Proof.
  induction 1 as [|c cs Hc Hcs IH]; [reflexivity|]. cbn [concat flat_map].
  rewrite limbs8_app_aligned by (apply aligned8_32; exact Hc). rewrite IH. reflexivity.
Qed.

Lemma forallb_flat_map {A B} (f : B -> bool) (g : A -> list B) l :
  forallb f (flat_map g l) = forallb (fun c => forallb f (g c)) l.
Proof. induction l as [|x l IH]; [reflexivity|]. cbn [flat_map forallb]. rewrite forallb_app, IH. reflexivity. Qed.

Lemma forallb_perm {A} (f : A -> bool) l1 l2 : Permutation l1 l2 -> forallb f l1 = forallb f l2.
Proof.
  induction 1 as [|x l l' P IH|x y l|l l' l'' P1 IH1 P2 IH2]; cbn [forallb].
  - reflexivity.
  - now rewrite IH.
  - destruct (f x), (f y); reflexivity.
  - now rewrite IH1.
Qed.

Lemma is_canonical_hash_iff c : is_canonical_hash c = true <-> Forall (fun v => v < p) (limbs8 c).
Proof. unfold is_canonical_hash. change MERKLE_GOLDILOCKS_MODULUS with p. apply forallb_lt. Qed.

Lemma presorted_spec H cs : zlen cs = 4 -> Forall (fun c => zlen c = 32) cs ->
  hash_node_presorted H cs =
  if forallb is_canonical_hash cs then Ok (hash_to_bytes H (flat_map limbs8 cs)) else Err 3.
Proof.
  intros L F. unfold hash_node_presorted, hash_bytes_compact.
  rewrite compact_preimage_spec, (concat_len32 cs F), L, (limbs8_concat32 cs F), forallb_flat_map.
  unfold is_canonical_hash. change MERKLE_GOLDILOCKS_MODULUS with p.
  destruct (forallb _ cs); reflexivity.
Qed.

Lemma node_spec H cs : zlen cs = 4 -> Forall (fun c => zlen c = 32) cs ->
  hash_node H cs =
  if forallb is_canonical_hash cs then Ok (hash_to_bytes H (flat_map limbs8 (sort_children cs))) else Err 3.
Proof.
  intros L F. rewrite node_is_presorted_of_sort.
  pose proof (sort_perm cs) as P.
  rewrite presorted_spec.
  - rewrite (forallb_perm _ _ _ P). reflexivity.
  - unfold zlen in *. rewrite (Permutation_length P). exact L.
  - eapply Permutation_Forall; [apply Permutation_sym; exact P|exact F].
Qed.
