From V.Base Require Import Common.
From V.Generated Require Import Constants.
From V.Sys Require Import AddressBinding.

Lemma guard_ok b c : guard b c = Ok tt <-> b = true.
Proof. apply guard_ok_iff. Qed.

Lemma prefix_ok l n a : prefix l n = Ok a <-> n <= zlen l /\ a = firstn (Z.to_nat n) l.
Proof.
  unfold prefix. destruct (Z.leb_spec n (zlen l)); split.
  - intros [= <-]. auto.
  - intros [_ ->]. reflexivity.
  - discriminate.
  - lia.
Qed.

Section Proofs.
  Variable P : Type.
  Variable pis : P -> list Z.
  Variable verifies : P -> bool.
  Notation verify := (verify P pis verifies).
  Notation prove_batch := (prove_batch P pis verifies).

  Definition exposed_address (pf : P) : list Z := firstn (Z.to_nat PUBLIC_AGGREGATOR_ADDRESS_LEN) (pis pf).

  (* [verify] is four tests in a row; the slice is the second one *)
  Lemma verify_eq c pf :
    verify c pf =
    (_ <-? guard (zlen (pis pf) =? c_expected_len c) E_LEN ;;
     _ <-? guard (PUBLIC_AGGREGATOR_ADDRESS_LEN <=? zlen (pis pf)) PANIC ;;
     _ <-? guard (list_eqb (exposed_address pf) (c_addr c)) E_ADDR ;;
     _ <-? guard (verifies pf) E_VERIFY ;;
     Ok tt).
  Proof.
    unfold AddressBinding.verify, prefix, exposed_address.
    destruct (_ =? _); [cbn [guard rbind]|reflexivity]. destruct (_ <=? _); reflexivity.
  Qed.

  Lemma verify_ok_iff c pf u :
    verify c pf = Ok u <->
    zlen (pis pf) = c_expected_len c /\ PUBLIC_AGGREGATOR_ADDRESS_LEN <= zlen (pis pf) /\
    exposed_address pf = c_addr c /\ verifies pf = true.
  Proof.
    rewrite verify_eq, !guard_bind_ok_iff, Z.eqb_eq, Z.leb_le, list_eqb_spec. destruct u.
    split; [intros (E & L & A & V & _)|intros (E & L & A & V)]; auto.
  Qed.

  Lemma prove_batch_iff c produce pf :
    prove_batch c produce = Ok pf <-> produce = Ok pf /\ verify c pf = Ok tt.
  Proof.
    unfold AddressBinding.prove_batch. split.
    - intro H. apply rbind_ok_iff in H as (q & E & H). apply rbind_unit_ok_iff in H as [V [= ->]]. auto.
    - intros [-> V]. cbn [rbind]. rewrite V. reflexivity.
  Qed.
End Proofs.
