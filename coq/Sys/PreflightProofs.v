(* Proofs about the commit-preflight and template-validator models (C14, C16).

   Vocabulary of the statements (independent of the preflight functions):
     contrib k m / total k l   what leaf statement m (resp. the batch l) pays to exit account k after the circuit's dummy masking
     compat_spec l             order-independent reading of LeanPort.priv_compat (one asset over all slots; real slots share block
                               hash and fee; real nullifiers pairwise distinct; every account receives < 2^32 in total)
     pub_spec l                the same for LeanPort.pub_compat
   [priv_spec_iff] / [pub_spec_iff] show these ARE priv_compat / pub_compat; being order-independent they transfer along
   any permutation (the shuffle of commit). *)
From Coq Require Import Permutation.
From V.Base Require Import Common.
From V.Generated Require Import Constants.
From V.Circ Require Import PrivateBatch PublicBatch.
From V.Spec Require Import LeanPort LeanPortFacts.
From V.Sys Require Import Parsers ParsersProofs Preflight.

Local Open Scope Z_scope.

Lemma guard_false c : guard false c = Err c.
Proof. reflexivity. Qed.

Lemma find_none_filter {A} (f : A -> bool) l : find f l = None -> filter f l = [].
Proof. induction l as [|x l IH]; cbn [find filter]; [reflexivity|]. destruct (f x); [discriminate|exact IH]. Qed.
Lemma all_dummy_forallb {A} (d g : A -> bool) l :
  find (fun x => negb (d x)) l = None -> forallb (fun x => d x || g x) l = true.
Proof.
  intro Fd. apply forallb_forall. intros x I. apply (find_none _ _ Fd), negb_false_iff in I. rewrite I. reflexivity.
Qed.
Lemma exists_in_map {A B} (f : A -> B) (P : B -> Prop) l :
  (exists y, In y (map f l) /\ P y) <-> exists x, In x l /\ P (f x).
Proof.
  split; [intros (y & (x & <- & I)%in_map_iff & H); eauto|]. intros (x & I & H). exists (f x). split; [apply in_map, I|exact H].
Qed.
Lemma forall_in_map {A B} (f : A -> B) (P : B -> Prop) l :
  (forall y, In y (map f l) -> P y) <-> forall x, In x l -> P (f x).
Proof. rewrite <- !Forall_forall. apply Forall_map. Qed.
Lemma find_is_some {A} (f : A -> bool) l :
  match find f l with Some _ => true | None => false end = true <-> exists x, In x l /\ f x = true.
Proof.
  destruct (find f l) as [x|] eqn:E.
  - split; [intros _; exists x; apply (find_some _ _ E)|reflexivity].
  - split; [discriminate|]. intros (x & I & R). rewrite (find_none _ _ E x I) in R. discriminate.
Qed.

(* what statement m pays to account k after masking; the total over a batch *)
Definition contrib (k : list Z) (m : list Z) : Z :=
  if is_dummy_pb m then 0
  else (if list_eqb (lf_exit1 m) k then lf_out1 m else 0) + (if list_eqb (lf_exit2 m) k then lf_out2 m else 0).
Fixpoint total (k : list Z) (l : list (list Z)) : Z :=
  match l with [] => 0 | m :: r => contrib k m + total k r end.

Lemma total_masked k l : matchSum k (maskedChildPairs l) = total k l.
Proof.
  induction l as [|m r IH]; cbn [maskedChildPairs matchSum total]; [reflexivity|].
  rewrite IH. unfold contrib. destruct (is_dummy_pb m); [destruct (list_eqb zero4 k)|]; lia.
Qed.
Lemma matchSum_real_pairs k l : matchSum k (real_pairs l) = total k l.
Proof.
  induction l as [|m r IH]; cbn [real_pairs flat_map total]; [reflexivity|].
  rewrite matchSum_app. fold (real_pairs r). rewrite IH. unfold contrib.
  destruct (is_dummy_pb m); cbn [matchSum]; lia.
Qed.
Lemma total_app k a b : total k (a ++ b) = total k a + total k b.
Proof. induction a as [|m r IH]; cbn [app total]; [reflexivity|]. rewrite IH. lia. Qed.
Lemma total_repeat_dummy k t j : is_dummy_pb t = true -> total k (repeat t j) = 0.
Proof. intro Dm. induction j as [|j IH]; cbn [repeat total]; [reflexivity|]. rewrite IH. unfold contrib. rewrite Dm. reflexivity. Qed.

Definition compat_core (l : list (list Z)) : Prop :=
  one_asset l /\ one_header l /\ NoDup (map lf_null (filter is_real_pb l)).
Definition compat_spec (l : list (list Z)) : Prop := compat_core l /\ forall k, total k l < two32.

Lemma priv_spec_iff l : priv_compat l = true <-> compat_spec l.
Proof.
  rewrite priv_compat_iff. unfold compat_prop, compat_spec, compat_core.
  assert (T : (forall k, matchSum k (maskedChildPairs l) < two32) <-> forall k, total k l < two32)
    by (split; intros D k; [rewrite <- total_masked|rewrite total_masked]; apply D).
  tauto.
Qed.
Lemma priv_compat_perm l l' : Permutation l l' -> priv_compat l = priv_compat l'.
Proof. apply LeanPortFacts.priv_compat_perm. Qed.

(* the association-list map of the grouped-sum pass: its keys stay distinct and it computes exactly these totals *)
Lemma acc_add_matchSum k k0 a acc :
  matchSum k (acc_add k0 a acc) = (if list_eqb k0 k then a else 0) + matchSum k acc.
Proof.
  induction acc as [|[k' s] r IH]; cbn [acc_add matchSum]; [lia|].
  destruct (list_eqb k' k0) eqn:E; cbn [matchSum].
  - apply list_eqb_spec in E. subst k'. destruct (list_eqb k0 k); lia.
  - rewrite IH. lia.
Qed.
Lemma acc_add_key k k0 a acc : In k (map fst (acc_add k0 a acc)) -> k = k0 \/ In k (map fst acc).
Proof.
  induction acc as [|[k' s] r IH]; cbn [acc_add]; [intros [<-|[]]; left; reflexivity|].
  destruct (list_eqb k' k0); cbn [map fst In]; (intros [E|I]; [auto|]); [auto|apply IH in I as [E|I]; auto].
Qed.
Lemma acc_add_NoDup k0 a acc : NoDup (map fst acc) -> NoDup (map fst (acc_add k0 a acc)).
Proof.
  induction acc as [|[k' s] r IH]; cbn [acc_add map fst]; intro ND; [repeat constructor; intros []|].
  destruct (list_eqb k' k0) eqn:E; [exact ND|]. apply list_eqb_false in E. apply NoDup_cons_iff in ND.
  cbn [map fst]. constructor; [|apply IH, ND]. intros [->|I]%acc_add_key; tauto.
Qed.

Lemma fold_acc_add_NoDup pairs : forall acc, NoDup (map fst acc) ->
  NoDup (map fst (fold_left (fun acc ka => acc_add (fst ka) (snd ka) acc) pairs acc)).
Proof.
  induction pairs as [|[k0 a] ps IH]; intros acc ND; cbn [fold_left fst snd]; [exact ND|]. apply IH, acc_add_NoDup, ND.
Qed.
Lemma fold_acc_add_matchSum k pairs : forall acc,
  matchSum k (fold_left (fun acc ka => acc_add (fst ka) (snd ka) acc) pairs acc) = matchSum k pairs + matchSum k acc.
Proof.
  induction pairs as [|[k0 a] ps IH]; intro acc; cbn [fold_left matchSum fst snd]; [lia|]. rewrite IH, acc_add_matchSum. lia.
Qed.

(* in a list with distinct keys, the entry of [k] is the whole of what [k] receives *)
Lemma matchSum_keyed k s (acc : list (list Z * Z)) : NoDup (map fst acc) -> In (k, s) acc -> matchSum k acc = s.
Proof.
  induction acc as [|[k' s'] r IH]; cbn [map fst matchSum]; intros ND I; [destruct I|].
  apply NoDup_cons_iff in ND as [NI ND]. destruct I as [[= -> ->]|I].
  - rewrite list_eqb_refl, matchSum_notin by exact NI. lia.
  - destruct (list_eqb k' k) eqn:E.
    + apply list_eqb_spec in E. subst k'. exfalso. apply NI, in_map_iff. exists (k, s). auto.
    + rewrite IH by assumption. lia.
Qed.

Lemma sum_check_ok ms : sum_check ms = Ok tt <-> forall k, total k ms < two32.
Proof.
  assert (ND : NoDup (map fst (exit_sums ms))) by (apply fold_acc_add_NoDup; constructor).
  assert (T : forall k, matchSum k (exit_sums ms) = total k ms).
  { intro k. unfold exit_sums. rewrite fold_acc_add_matchSum, matchSum_real_pairs. cbn [matchSum]. lia. }
  unfold sum_check. rewrite guard_ok_iff, forallb_forall. split.
  - intros H k. rewrite <- T. apply matchSum_lt_all. intros e a I. rewrite (matchSum_keyed _ _ _ ND I). apply Z.ltb_lt, (H _ I).
  - intros H [k s] I. apply Z.ltb_lt. cbn [snd]. rewrite <- (matchSum_keyed _ _ _ ND I), T. apply H.
Qed.

Lemma asset_check_ok ms : asset_check ms = Ok tt <-> one_asset ms.
Proof.
  destruct ms as [|f r]; cbn [asset_check].
  - split; [exists 0; intros m []|reflexivity].
  - rewrite guard_ok_iff, forallb_forall. split.
    + intro H. exists (lf_asset f). intros m [<-|I]; [reflexivity|]. apply Z.eqb_eq, H, I.
    + intros (A & HA) m I. apply Z.eqb_eq. rewrite (HA f), (HA m) by (cbn [In]; auto). reflexivity.
Qed.
Lemma asset_check_class ms k : asset_check ms = Err k -> k = E_ASSET.
Proof. destruct ms; cbn [asset_check]; [discriminate|]. intro H. apply guard_err_iff in H. apply H. Qed.

(* the reference the loop compares against: the one handed in, else some real member *)
Definition cand (reference : option (list Z)) (ms : list (list Z)) (rf : list Z) : Prop :=
  reference = Some rf \/ (reference = None /\ In rf ms /\ is_real_pb rf = true).
Lemma cand_cons_some rf x r rf' : cand (Some rf) r rf' -> cand (Some rf) (x :: r) rf'.
Proof. intros [H|(H & _)]; [left; exact H|discriminate]. Qed.
Lemma cand_cons_none_dummy x r rf' : cand None r rf' -> cand None (x :: r) rf'.
Proof. intros [H|(H & I & R)]; [discriminate|]. right. split; [reflexivity|]. split; [right; exact I|exact R]. Qed.

Lemma compat_loop_dummy reference seen m r :
  is_dummy_pb m = true -> compat_loop reference seen (m :: r) = compat_loop reference seen r.
Proof. intro D. cbn [compat_loop]. rewrite D. reflexivity. Qed.
Lemma compat_loop_real rf seen m r : is_dummy_pb m = false ->
  compat_loop (Some rf) seen (m :: r) =
  (_ <-? guard (list_eqb (lf_bh m) (lf_bh rf)) E_BLOCK ;; _ <-? guard (lf_fee m =? lf_fee rf) E_FEE ;;
   _ <-? guard (negb (dmem (lf_null m) seen)) E_DUP_NULL ;; compat_loop (Some rf) (lf_null m :: seen) r).
Proof. intro D. cbn [compat_loop]. rewrite D. destruct (list_eqb _ _), (_ =? _); reflexivity. Qed.
(* without a reference the loop adopts the first real statement, which trivially agrees with itself *)
Lemma compat_loop_none seen ms :
  compat_loop None seen ms =
  match find is_real_pb ms with Some rf => compat_loop (Some rf) seen ms | None => Ok None end.
Proof.
  induction ms as [|m r IH]; [reflexivity|]. cbn [find compat_loop]. change (is_real_pb m) with (negb (is_dummy_pb m)).
  destruct (is_dummy_pb m); cbn [negb rbind]; [exact IH|]. rewrite list_eqb_refl, Z.eqb_refl. reflexivity.
Qed.

Lemma Forall_notin_cons {A B} (f : A -> B) x s l :
  Forall (fun y => ~ In (f y) (x :: s)) l <-> ~ In x (map f l) /\ Forall (fun y => ~ In (f y) s) l.
Proof.
  induction l as [|y l IH]; cbn [map In]; [split; [split; [tauto|constructor]|constructor]|].
  rewrite !Forall_cons_iff, IH. cbn [In]. intuition congruence.
Qed.

(* against a reference: the header checks are the conjunct of priv_compat about the reference; the nullifiers of the
   real statements are new to [seen] and to one another *)
Lemma compat_loop_some_ok rf ms : forall seen r',
  compat_loop (Some rf) seen ms = Ok r' <->
  r' = Some rf /\
  forallb (fun m => is_dummy_pb m || (list_eqb (lf_bh m) (lf_bh rf) && (lf_fee m =? lf_fee rf))) ms = true /\
  NoDup (map lf_null (filter is_real_pb ms)) /\ Forall (fun m => ~ In (lf_null m) seen) (filter is_real_pb ms).
Proof.
  induction ms as [|m r IH]; intros seen r'; cbn [filter forallb].
  - cbn [compat_loop map]. split; [intros [= <-]|intros [-> _]]; repeat constructor.
  - change (is_real_pb m) with (negb (is_dummy_pb m)). destruct (is_dummy_pb m) eqn:D; cbn [negb orb andb].
    + rewrite compat_loop_dummy by exact D. apply IH.
    + rewrite compat_loop_real by exact D. cbn [map].
      rewrite !guard_bind_ok_iff, IH, !andb_true_iff, negb_true_iff, dmem_false, NoDup_cons_iff, Forall_cons_iff, Forall_notin_cons.
      tauto.
Qed.
Lemma compat_loop_class ms : forall reference seen k,
  compat_loop reference seen ms = Err k -> k = E_BLOCK \/ k = E_FEE \/ k = E_DUP_NULL.
Proof.
  induction ms as [|m r IH]; intros reference seen k; [discriminate|]. destruct (is_dummy_pb m) eqn:D.
  - rewrite compat_loop_dummy by exact D. apply IH.
  - destruct reference as [rf|]; [rewrite compat_loop_real by exact D|cbn [compat_loop rbind]; rewrite D].
    + intros [[_ ->]|[[_ ->]|[[_ ->]|H]%guard_bind_err]%guard_bind_err]%guard_bind_err; eauto.
    + intros [[_ ->]|H]%guard_bind_err; eauto.
Qed.

Lemma compat_loop_ok_iff ms r' :
  compat_loop None [] ms = Ok r' <->
  r' = find is_real_pb ms /\ one_header ms /\ NoDup (map lf_null (filter is_real_pb ms)).
Proof.
  rewrite compat_loop_none, <- refs_ok_iff. unfold ref_bh, ref_fee, ref_header.
  destruct (find is_real_pb ms) as [rf|] eqn:Fd; cbn [fst snd].
  - assert (Forall (fun m => ~ In (lf_null m) []) (filter is_real_pb ms)) by (apply Forall_forall; intros m _ []).
    rewrite compat_loop_some_ok. tauto.
  - rewrite (all_dummy_forallb is_dummy_pb _ _ Fd), (find_none_filter _ _ Fd).
    split; [intros [= <-]|intros [-> _]]; repeat constructor.
Qed.

(* what ensure_leaf_batch_compatible_nosum (the function without the sum pass) accepts: everything priv_compat asks for
   except the sums, plus "some real proof" *)
Definition nosum_spec (ms : list (list Z)) : Prop := compat_core ms /\ exists m, In m ms /\ is_real_pb m = true.

Lemma nosum_ok_iff ms : ensure_leaf_batch_compatible_nosum ms = Ok tt <-> nosum_spec ms.
Proof.
  unfold ensure_leaf_batch_compatible_nosum, nosum_spec, compat_core.
  rewrite rbind_unit_ok_iff, asset_check_ok, rbind_ok_iff, <- (find_is_some is_real_pb ms). split.
  - intros [HA (r' & (-> & HB & HN)%compat_loop_ok_iff & G%guard_ok_iff)]. auto.
  - intros ((HA & HB & HN) & G). split; [exact HA|]. exists (find is_real_pb ms).
    split; [apply compat_loop_ok_iff; auto|apply guard_ok_iff, G].
Qed.
Lemma nosum_err ms k : ensure_leaf_batch_compatible_nosum ms = Err k ->
  k = E_ALL_DUMMY \/ (k = E_ASSET \/ k = E_BLOCK \/ k = E_FEE \/ k = E_DUP_NULL) /\ ~ compat_core ms.
Proof.
  unfold ensure_leaf_batch_compatible_nosum.
  intros [H|[_ [H|(r' & _ & [_ ->]%guard_err_iff)]%rbind_err_iff]]%rbind_unit_err_iff; [right|right|left; reflexivity].
  - split; [left; apply (asset_check_class _ _ H)|]. intros (HA%asset_check_ok & _). congruence.
  - split; [right; apply (compat_loop_class _ _ _ _ H)|]. intros (_ & HB & HN).
    rewrite (proj2 (compat_loop_ok_iff ms _) (conj eq_refl (conj HB HN))) in H. discriminate.
Qed.

Lemma ensure_ok_iff ms : ensure_leaf_batch_compatible ms = Ok tt <-> nosum_spec ms /\ forall k, total k ms < two32.
Proof. unfold ensure_leaf_batch_compatible. rewrite rbind_unit_ok_iff, nosum_ok_iff, sum_check_ok. reflexivity. Qed.
Lemma ensure_err ms k : ensure_leaf_batch_compatible ms = Err k ->
  k = E_ALL_DUMMY \/ (k = E_ASSET \/ k = E_BLOCK \/ k = E_FEE \/ k = E_DUP_NULL) /\ ~ compat_core ms \/
  k = E_SUM /\ nosum_spec ms /\ ~ (forall k, total k ms < two32).
Proof.
  unfold ensure_leaf_batch_compatible. intros [[H|H]%nosum_err|[H%nosum_ok_iff S]]%rbind_unit_err_iff; auto.
  right. right. split; [apply guard_err_iff in S; apply S|]. split; [exact H|]. intros X%sum_check_ok. congruence.
Qed.

(* [padding] is always the comparison of the two counts *)
Lemma check_leaf_children_ok a b cs : check_leaf_children (a <? b) cs = Ok tt <->
  Forall (fun c => zlen (c_pis c) = PR_LEAF_PI_LEN /\ c_ok c = true /\ (a < b -> lf_asset (c_pis c) = 0)) cs.
Proof.
  induction cs as [|c r IH]; cbn [check_leaf_children]; [split; auto|].
  rewrite !guard_bind_ok_iff, IH, Forall_cons_iff, orb_true_iff, negb_true_iff, Z.ltb_ge, !Z.eqb_eq.
  assert (b <= a \/ lf_asset (c_pis c) = 0 <-> (a < b -> lf_asset (c_pis c) = 0)) by lia. tauto.
Qed.
Lemma check_leaf_children_err a b cs k : check_leaf_children (a <? b) cs = Err k ->
  k = E_PI_LEN \/ k = E_INVALID \/ k = E_PAD_ASSET /\ a < b /\ exists c, In c cs /\ lf_asset (c_pis c) <> 0.
Proof.
  induction cs as [|c r IH]; cbn [check_leaf_children]; [discriminate|].
  intros [[_ ->]|[[_ ->]|[[A ->]|H]%guard_bind_err]%guard_bind_err]%guard_bind_err; auto.
  - apply orb_false_iff in A as [P%negb_false_iff%Z.ltb_lt X%Z.eqb_neq]. do 2 right. eauto 6 using in_eq.
  - apply IH in H as [H|[H|(H & P & c' & I & X)]]; auto. do 2 right. eauto 6 using in_cons.
Qed.

(* what both commit preflights do: the counts, then every child proof, then compatibility of the statements *)
Definition staged (n : Z) (cs : list child) (children compat : res unit) : res unit :=
  _ <-? guard (negb (zlen cs =? 0)) E_EMPTY ;; _ <-? guard (zlen cs <=? n) E_TOO_MANY ;; _ <-? children ;; compat.
Lemma private_with_staged compat n cs :
  private_commit_preflight_with compat n cs = staged n cs (check_leaf_children (zlen cs <? n) cs) (compat (map c_pis cs)).
Proof. reflexivity. Qed.
Lemma public_staged m pi_len cs :
  public_preflight m pi_len cs =
  staged m cs (check_inner_children pi_len cs) (ensure_private_batch_compatible (map c_pis cs)).
Proof. reflexivity. Qed.

Lemma staged_ok_iff n cs ch co : staged n cs ch co = Ok tt <-> 0 < zlen cs <= n /\ ch = Ok tt /\ co = Ok tt.
Proof.
  unfold staged. pose proof (zlen_nonneg cs) as NN.
  rewrite !guard_bind_ok_iff, rbind_unit_ok_iff, negb_true_iff, Z.eqb_neq, Z.leb_le. intuition lia.
Qed.
Lemma staged_empty n cs ch co : zlen cs = 0 -> staged n cs ch co = Err E_EMPTY.
Proof. unfold staged. intros ->. reflexivity. Qed.
Lemma staged_too_many n cs ch co : 0 < zlen cs -> n < zlen cs -> staged n cs ch co = Err E_TOO_MANY.
Proof.
  intros P L. unfold staged. rewrite guard_bind_true, guard_bind_false; [reflexivity|apply Z.leb_gt, L|].
  apply negb_true_iff, Z.eqb_neq. lia.
Qed.
Lemma staged_err n cs ch co k : staged n cs ch co = Err k ->
  k = E_EMPTY \/ k = E_TOO_MANY \/ 0 < zlen cs <= n /\ (ch = Err k \/ ch = Ok tt /\ co = Err k).
Proof.
  unfold staged. pose proof (zlen_nonneg cs) as NN.
  destruct (Z.eqb_spec (zlen cs) 0) as [|N]; cbn [negb guard rbind]; [intros [= <-]; auto|].
  destruct (Z.leb_spec (zlen cs) n) as [L|]; cbn [guard rbind]; [|intros [= <-]; auto].
  intro H. right. right. split; [lia|]. destruct ch as [[]|c]; auto.
Qed.

Lemma private_preflight_ok_iff n cs :
  private_commit_preflight n cs = Ok tt <->
  0 < zlen cs <= n /\
  (forall c, In c cs -> zlen (c_pis c) = PR_LEAF_PI_LEN /\ c_ok c = true /\ (zlen cs < n -> lf_asset (c_pis c) = 0)) /\
  (compat_core (map c_pis cs) /\ exists c, In c cs /\ is_real_pb (c_pis c) = true) /\
  (forall k, total k (map c_pis cs) < two32).
Proof.
  unfold private_commit_preflight.
  rewrite private_with_staged, staged_ok_iff, check_leaf_children_ok, Forall_forall, ensure_ok_iff. unfold nosum_spec.
  rewrite exists_in_map. reflexivity.
Qed.

(* every rejection: a count or shape class, the padding-asset policy with its witness, or the children are fine and
   the statements are incompatible *)
Lemma private_preflight_err n cs k : private_commit_preflight n cs = Err k ->
  k = E_EMPTY \/ k = E_TOO_MANY \/ k = E_PI_LEN \/ k = E_INVALID \/
  k = E_PAD_ASSET /\ zlen cs < n /\ (exists c, In c cs /\ lf_asset (c_pis c) <> 0) \/
  0 < zlen cs <= n /\ check_leaf_children (zlen cs <? n) cs = Ok tt /\
  ensure_leaf_batch_compatible (map c_pis cs) = Err k.
Proof.
  intros [E|[E|(R & [H|H])]]%staged_err; [tauto..| |tauto].
  apply check_leaf_children_err in H. tauto.
Qed.

Lemma private_compat_class_children n cs k : private_commit_preflight n cs = Err k ->
  k = E_ASSET \/ k = E_BLOCK \/ k = E_FEE \/ k = E_DUP_NULL \/ k = E_ALL_DUMMY \/ k = E_SUM ->
  0 < zlen cs <= n /\
  forall c, In c cs -> zlen (c_pis c) = PR_LEAF_PI_LEN /\ c_ok c = true /\ (zlen cs < n -> lf_asset (c_pis c) = 0).
Proof.
  intros [->|[->|[->|[->|[(-> & _)|(R & H & _)]]]]]%private_preflight_err K; [exfalso; intuition discriminate..|].
  split; [exact R|]. apply Forall_forall, check_leaf_children_ok, H.
Qed.
Lemma private_sum_class n cs : private_commit_preflight n cs = Err E_SUM -> nosum_spec (map c_pis cs).
Proof.
  intros [E|[E|[E|[E|[(E & _)|(_ & _ & H)]]]]]%private_preflight_err; [discriminate E..|].
  apply ensure_err in H as [E|[(E & _)|(_ & X & _)]]; [discriminate E|exfalso; intuition discriminate|exact X].
Qed.

(* what a validated padding template is, as far as the batch logic cares *)
Definition dummy_sentinel (t : list Z) : Prop := is_dummy_pb t = true /\ lf_asset t = 0.

Lemma in_padded_iff n ms t m : In m (padded n ms t) <-> In m ms \/ m = t /\ zlen ms < n.
Proof.
  unfold padded. rewrite in_app_iff. split; (intros [I|I]; [left; exact I|right]).
  - split; [apply (repeat_spec _ _ _ I)|]. destruct (Z.to_nat (n - zlen ms)) eqn:E; [destruct I|lia].
  - destruct I as [-> Lt]. destruct (Z.to_nat (n - zlen ms)) eqn:E; [lia|left; reflexivity].
Qed.
Lemma filter_padded (f : list Z -> bool) n ms t : f t = false -> filter f (padded n ms t) = filter f ms.
Proof.
  intro Ft. unfold padded. rewrite filter_app. induction (Z.to_nat _) as [|j IH]; cbn [repeat filter]; [apply app_nil_r|].
  rewrite Ft. exact IH.
Qed.
Lemma total_padded k n ms t : is_dummy_pb t = true -> total k (padded n ms t) = total k ms.
Proof. intro Dt. unfold padded. rewrite total_app, total_repeat_dummy by exact Dt. lia. Qed.
Lemma forall_real_padded (f : list Z -> bool) (P : list Z -> Prop) n ms t : f t = false ->
  (forall m, In m (padded n ms t) -> f m = true -> P m) <-> (forall m, In m ms -> f m = true -> P m).
Proof.
  intro Ft. split; intros H m I; [apply H, in_padded_iff; left; exact I|].
  apply in_padded_iff in I as [I|[-> _]]; [apply H, I|congruence].
Qed.

Lemma one_asset_padded n ms t : lf_asset t = 0 ->
  one_asset (padded n ms t) <-> one_asset ms /\ (zlen ms < n -> forall m, In m ms -> lf_asset m = 0).
Proof.
  intro At. split.
  - intros (A & H). split; [exists A; intros m I; apply H, in_padded_iff; auto|]. intros Lt m I.
    rewrite (H m), <- (H t) by (apply in_padded_iff; auto). exact At.
  - intros [(A & H) Z0]. destruct (Z_lt_dec (zlen ms) n) as [Lt|Ge]; [exists 0|exists A]; intros m [I|[-> Lt']]%in_padded_iff; auto.
    contradiction.
Qed.
Lemma one_header_padded n ms t : is_real_pb t = false -> one_header (padded n ms t) <-> one_header ms.
Proof. intro Rt. split; intros (bh & fee & H); exists bh, fee; revert H; apply forall_real_padded, Rt. Qed.

(* padding with the template changes nothing for the circuit, except that the one asset is then the template's: 0 *)
Lemma padded_compat_iff n ms t : dummy_sentinel t ->
  compat_spec (padded n ms t) <-> compat_spec ms /\ (zlen ms < n -> forall m, In m ms -> lf_asset m = 0).
Proof.
  intros [Dt At]. pose proof (is_real_pb_of_dummy _ _ Dt) as Rt. unfold compat_spec, compat_core.
  rewrite (filter_padded _ _ _ _ Rt). split.
  - intros (([HA Z0]%(one_asset_padded n ms t At) & HB%(one_header_padded n ms t Rt) & HN) & HS).
    split; [|exact Z0]. split; [auto|]. intro k. rewrite <- (total_padded k n ms t Dt). apply HS.
  - intros (((HA & HB & HN) & HS) & Z0). split; [|intro k; rewrite (total_padded k n ms t Dt); apply HS].
    split; [apply (one_asset_padded n ms t At); auto|]. split; [apply (one_header_padded n ms t Rt), HB|exact HN].
Qed.

Lemma private_accept_iff n cs t : dummy_sentinel t ->
  (private_commit_preflight n cs = Ok tt <->
   0 < zlen cs <= n /\
   (forall c, In c cs -> zlen (c_pis c) = PR_LEAF_PI_LEN /\ c_ok c = true) /\
   (exists c, In c cs /\ is_real_pb (c_pis c) = true) /\
   priv_compat (padded n (map c_pis cs) t) = true).
Proof.
  intro Dt. rewrite private_preflight_ok_iff, priv_spec_iff, (padded_compat_iff _ _ _ Dt), zlen_map, forall_in_map.
  unfold compat_spec. split.
  - intros (R & HC & (Co & E) & T). split; [exact R|]. split; [intros c I; split; apply (HC c I)|]. split; [exact E|].
    split; [auto|]. intros Lt c I. apply (HC c I), Lt.
  - intros (R & HC & E & (Co & T) & Z0). split; [exact R|]. split; [|auto]. intros c I. split; [apply (HC c I)|].
    split; [apply (HC c I)|]. intro Lt. apply (Z0 Lt c I).
Qed.

(* a rejection outside the documented policies (E_PAD_ASSET is not one of them) means the circuit cannot prove the padded batch *)
Lemma private_reject_not_compat n cs t k :
  private_commit_preflight n cs = Err k ->
  k <> E_EMPTY -> k <> E_TOO_MANY -> k <> E_PI_LEN -> k <> E_INVALID -> k <> E_ALL_DUMMY ->
  dummy_sentinel t -> priv_compat (padded n (map c_pis cs) t) = false.
Proof.
  intros H N1 N2 N3 N4 N5 Dt. apply not_true_iff_false. intros [CS Z0]%priv_spec_iff%(padded_compat_iff _ _ _ Dt).
  apply private_preflight_err in H as [->|[->|[->|[->|[(_ & P & c & I & X)|(_ & _ & H)]]]]]; try congruence.
  - apply X, Z0; [rewrite zlen_map; exact P|apply in_map, I].
  - apply ensure_err in H as [->|[(_ & X)|(_ & _ & X)]]; [congruence|apply X, CS..].
Qed.

(* without the sum pass the preflight accepts batches the circuit cannot prove: two real leaves paying 2^31 each to one account *)
Definition f1_leaf (nullifier : Z) : list Z :=
  [0; 2147483648; 0; 10] ++ [nullifier; 0; 0; 0] ++ [5; 6; 7; 8] ++ [0; 0; 0; 0] ++ [9; 0; 0; 0] ++ [3].
Definition f1_batch : list child := [mkChild (f1_leaf 1) true; mkChild (f1_leaf 2) true].
Lemma nosum_preflight_refuted :
  private_commit_preflight_nosum 2 f1_batch = Ok tt /\
  priv_compat (padded 2 (map c_pis f1_batch) (repeat 0 21)) = false /\
  private_commit_preflight 2 f1_batch = Err E_SUM.
Proof. vm_compute. repeat split. Qed.

Definition pub_spec (l : list (list Z)) : Prop :=
  exists a f bh, forall m, In m l -> is_real_inner m = true -> in_asset m = a /\ in_fee m = f /\ in_bh m = bh.

Lemma pub_spec_iff l : pub_compat l = true <-> pub_spec l.
Proof.
  unfold pub_compat, pub_spec, pub_ref. destruct (find is_real_inner l) as [rf|] eqn:Fd.
  - rewrite forallb_forall. apply find_some in Fd as [Irf Rrf]. split.
    + intro H. exists (in_asset rf), (in_fee rf), (in_bh rf). intros m I R. specialize (H m I).
      unfold is_real_inner in R. apply negb_true_iff in R. rewrite R in H.
      apply andb_true_iff in H as [[H1%Z.eqb_eq H2%Z.eqb_eq]%andb_true_iff H3%list_eqb_spec]. auto.
    + intros (a & f & bh & H) m I. destruct (is_dummy_inner m) eqn:Dm; [reflexivity|].
      destruct (H m I) as (-> & -> & ->); [unfold is_real_inner; rewrite Dm; reflexivity|]. destruct (H rf Irf Rrf) as (-> & -> & ->).
      rewrite !Z.eqb_refl, list_eqb_refl. reflexivity.
  - rewrite (all_dummy_forallb is_dummy_inner _ _ Fd). split; [intros _|reflexivity].
    exists 0, 0, zero4. intros m I R. rewrite (find_none _ _ Fd m I) in R. discriminate.
Qed.

Lemma pub_spec_perm l l' : Permutation l l' -> pub_spec l -> pub_spec l'.
Proof.
  intros P (a & f & bh & H). exists a, f, bh. intros m I. apply H. apply (Permutation_in _ (Permutation_sym P) I).
Qed.
Lemma pub_compat_perm l l' : Permutation l l' -> pub_compat l = pub_compat l'.
Proof.
  intro P. apply eq_true_iff_eq. rewrite !pub_spec_iff. split; apply pub_spec_perm; [exact P|symmetry; exact P].
Qed.

Lemma inner_loop_none ms :
  inner_loop None ms =
  match find is_real_inner ms with Some rf => inner_loop (Some rf) ms | None => Ok None end.
Proof.
  induction ms as [|m r IH]; [reflexivity|]. cbn [find inner_loop]. change (is_real_inner m) with (negb (is_dummy_inner m)).
  destruct (is_dummy_inner m); cbn [negb]; [exact IH|]. rewrite list_eqb_refl, !Z.eqb_refl. reflexivity.
Qed.

(* against a reference the loop evaluates, statement by statement, the conjunction that pub_compat folds over the batch *)
Lemma inner_loop_some_ok rf ms r' :
  inner_loop (Some rf) ms = Ok r' <->
  r' = Some rf /\
  forallb (fun m => is_dummy_inner m ||
                    ((in_asset m =? in_asset rf) && (in_fee m =? in_fee rf) && list_eqb (in_bh m) (in_bh rf))) ms = true.
Proof.
  induction ms as [|m r IH]; cbn [inner_loop forallb].
  - split; [intros [= <-]|intros [-> _]]; auto.
  - destruct (is_dummy_inner m); cbn [orb andb]; [exact IH|]. rewrite !guard_bind_ok_iff, IH, !andb_true_iff. tauto.
Qed.
Lemma inner_loop_class ms : forall reference k,
  inner_loop reference ms = Err k -> k = E_BLOCK \/ k = E_ASSET \/ k = E_FEE.
Proof.
  induction ms as [|m r IH]; intros reference k; [discriminate|]. cbn [inner_loop].
  destruct (is_dummy_inner m); [apply IH|]. destruct reference; [|apply IH].
  intros [[_ ->]|[[_ ->]|[[_ ->]|H]%guard_bind_err]%guard_bind_err]%guard_bind_err; eauto.
Qed.

Lemma inner_loop_ok_iff ms r' : inner_loop None ms = Ok r' <-> r' = find is_real_inner ms /\ pub_compat ms = true.
Proof.
  rewrite inner_loop_none. unfold pub_compat, pub_ref.
  destruct (find is_real_inner ms) as [rf|] eqn:Fd; [apply inner_loop_some_ok|].
  rewrite (all_dummy_forallb is_dummy_inner _ _ Fd). split; [intros [= <-]|intros [-> _]]; auto.
Qed.

Lemma ensure_pub_ok_iff ms :
  ensure_private_batch_compatible ms = Ok tt <-> pub_compat ms = true /\ exists m, In m ms /\ is_real_inner m = true.
Proof.
  unfold ensure_private_batch_compatible. rewrite rbind_ok_iff, <- (find_is_some is_real_inner ms). split.
  - intros (r' & (-> & PS)%inner_loop_ok_iff & G%guard_ok_iff). auto.
  - intros (PS & G). exists (find is_real_inner ms). split; [apply inner_loop_ok_iff; auto|apply guard_ok_iff, G].
Qed.
Lemma ensure_pub_err ms k : ensure_private_batch_compatible ms = Err k ->
  k = E_ALL_DUMMY \/ (k = E_BLOCK \/ k = E_ASSET \/ k = E_FEE) /\ pub_compat ms = false.
Proof.
  unfold ensure_private_batch_compatible. rewrite rbind_err_iff.
  intros [H|(r' & _ & G)]; [right|left; apply guard_err_iff in G; apply G].
  split; [apply (inner_loop_class _ _ _ H)|]. apply not_true_iff_false. intro PS.
  rewrite (proj2 (inner_loop_ok_iff ms _) (conj eq_refl PS)) in H. discriminate.
Qed.

Lemma check_inner_children_ok pi_len cs : check_inner_children pi_len cs = Ok tt <->
  Forall (fun c => zlen (c_pis c) = pi_len /\ c_ok c = true) cs.
Proof.
  induction cs as [|c r IH]; cbn [check_inner_children]; [split; auto|].
  rewrite !guard_bind_ok_iff, IH, Forall_cons_iff, Z.eqb_eq. tauto.
Qed.
Lemma check_inner_children_err pi_len cs k : check_inner_children pi_len cs = Err k -> k = E_PI_LEN \/ k = E_INVALID.
Proof.
  induction cs as [|c r IH]; cbn [check_inner_children]; [discriminate|].
  intros [[_ ->]|[[_ ->]|H]%guard_bind_err]%guard_bind_err; auto.
Qed.

Definition inner_dummy_sentinel (t : list Z) : Prop := is_dummy_inner t = true.

Lemma public_preflight_ok_iff m pi_len cs :
  public_preflight m pi_len cs = Ok tt <->
  0 < zlen cs <= m /\ (forall c, In c cs -> zlen (c_pis c) = pi_len /\ c_ok c = true) /\
  (exists c, In c cs /\ is_real_inner (c_pis c) = true) /\ pub_compat (map c_pis cs) = true.
Proof.
  rewrite public_staged, staged_ok_iff, check_inner_children_ok, Forall_forall, ensure_pub_ok_iff, exists_in_map. tauto.
Qed.

Lemma public_preflight_err m pi_len cs k : public_preflight m pi_len cs = Err k ->
  k = E_EMPTY \/ k = E_TOO_MANY \/ k = E_PI_LEN \/ k = E_INVALID \/
  0 < zlen cs <= m /\ check_inner_children pi_len cs = Ok tt /\
  ensure_private_batch_compatible (map c_pis cs) = Err k.
Proof.
  intros [E|[E|(R & [H|H])]]%staged_err; [tauto..| |tauto].
  apply check_inner_children_err in H. tauto.
Qed.
Lemma public_compat_class_children m pi_len cs k : public_preflight m pi_len cs = Err k ->
  k = E_BLOCK \/ k = E_ASSET \/ k = E_FEE \/ k = E_ALL_DUMMY ->
  0 < zlen cs <= m /\ forall c, In c cs -> zlen (c_pis c) = pi_len /\ c_ok c = true.
Proof.
  intros [->|[->|[->|[->|(R & H & _)]]]]%public_preflight_err K; [exfalso; intuition discriminate..|].
  split; [exact R|]. apply Forall_forall, check_inner_children_ok, H.
Qed.

(* padding with a dummy template changes nothing for the circuit *)
Lemma padded_pub_compat n ms t : is_dummy_inner t = true -> pub_compat (padded n ms t) = pub_compat ms.
Proof.
  intro Dt. assert (is_real_inner t = false) as Rt by (unfold is_real_inner; rewrite Dt; reflexivity).
  apply eq_true_iff_eq. rewrite !pub_spec_iff.
  split; intros (a & f & bh & H); exists a, f, bh; revert H; apply forall_real_padded, Rt.
Qed.

Lemma public_accept_iff m pi_len cs t : is_dummy_inner t = true ->
  (public_preflight m pi_len cs = Ok tt <->
   0 < zlen cs <= m /\
   (forall c, In c cs -> zlen (c_pis c) = pi_len /\ c_ok c = true) /\
   (exists c, In c cs /\ is_real_inner (c_pis c) = true) /\
   pub_compat (padded m (map c_pis cs) t) = true).
Proof. intro Dt. rewrite (padded_pub_compat _ _ _ Dt). apply public_preflight_ok_iff. Qed.

Lemma public_reject_not_compat m pi_len cs t k :
  public_preflight m pi_len cs = Err k ->
  k <> E_EMPTY -> k <> E_TOO_MANY -> k <> E_PI_LEN -> k <> E_INVALID -> k <> E_ALL_DUMMY ->
  is_dummy_inner t = true -> pub_compat (padded m (map c_pis cs) t) = false.
Proof.
  intros H N1 N2 N3 N4 N5 Dt. rewrite (padded_pub_compat _ _ _ Dt).
  apply public_preflight_err in H as [->|[->|[->|[->|(_ & _ & H)]]]]; try congruence.
  apply ensure_pub_err in H as [->|(_ & X)]; [congruence|exact X].
Qed.

Lemma reclass_ok {A} (r : res A) c a : reclass r c = Ok a <-> r = Ok a.
Proof. destruct r; cbn [reclass]; split; congruence. Qed.
Lemma ex_iff {T} (P Q : T -> Prop) : (forall x, P x <-> Q x) -> (ex P <-> ex Q).
Proof. intro H. split; intros (x & Hx); exists x; apply H, Hx. Qed.

Definition zero_on (l : list Z) (a b : nat) : Prop := forall i, (a <= i < b)%nat -> at_ l i = 0.

Lemma sub_zero_on l a n : sub l a n = repeat 0 n -> zero_on l a (a + n).
Proof.
  intros E i Hi. replace i with (a + (i - a))%nat by lia. rewrite <- (nth_sub l a n), E by lia. apply nth_repeat.
Qed.
Lemma zero_on_sub l a n : (a + n <= length l)%nat -> zero_on l a (a + n) -> sub l a n = repeat 0 n.
Proof.
  intros L H. apply (nth_ext _ _ 0 0); rewrite length_sub by exact L; [symmetry; apply repeat_length|].
  intros k Hk. rewrite nth_sub, nth_repeat by exact Hk. apply H. lia.
Qed.

Lemma zero_on_app l a b c : zero_on l a b -> zero_on l b c -> zero_on l a c.
Proof. intros H1 H2 i Hi. destruct (Nat.lt_ge_cases i b); [apply H1|apply H2]; lia. Qed.

(* the positions a leaf template is inspected at for the sentinel: asset, both outputs, both exit accounts, block hash *)
Definition leaf_inspected (i : nat) : Prop := (i <= 2)%nat \/ (8 <= i <= 19)%nat.

Lemma leaf_parsed {B} pis (k : LeafPI -> res B) b :
  (s <-? reclass (parse_leaf_u64 pis) T_PARSE ;; k s) = Ok b <-> wf_leaf pis /\ k (layout_leaf pis) = Ok b.
Proof.
  rewrite rbind_ok_iff. split.
  - intros (s & [W ->]%reclass_ok%leaf_accept_iff & H). auto.
  - intros [W H]. exists (layout_leaf pis). split; [apply reclass_ok, leaf_accept_iff; auto|exact H].
Qed.

Lemma leaf_template_ok_iff t :
  leaf_template_check t = Ok tt <->
  wf_leaf (c_pis t) /\ (forall i, leaf_inspected i -> at_ (c_pis t) i = 0) /\ c_ok t = true.
Proof.
  unfold leaf_template_check. rewrite leaf_parsed. apply and_iff_l. intros (L & _).
  cbn [l_bh l_out1 l_out2 l_asset l_exit1 l_exit2 layout_leaf]. split.
  - intro H. apply guard_bind_ok_iff in H as [B%list_eqb_spec%sub_zero_on H].
    apply guard_bind_ok_iff in H as [[O1%Z.eqb_eq O2%Z.eqb_eq]%andb_true_iff H].
    apply guard_bind_ok_iff in H as [A%Z.eqb_eq H].
    apply guard_bind_ok_iff in H as [[X1%list_eqb_spec%sub_zero_on X2%list_eqb_spec%sub_zero_on]%andb_true_iff V%guard_ok_iff].
    split; [|exact V]. intros i [Hi|Hi].
    + destruct i as [|[|[|i]]]; [exact A|exact O1|exact O2|lia].
    + apply (zero_on_app _ _ _ _ X1 (zero_on_app _ _ _ _ X2 B)). lia.
  - intros [Z0 V]. assert (forall a, (8 <= a <= 16)%nat -> sub (c_pis t) a 4 = zero4) as S
      by (intros a Ha; apply zero_on_sub; [lia|]; intros i Hi; apply Z0; right; lia).
    rewrite !S, !Z0, V by (lia || (left; lia)). reflexivity.
Qed.

Lemma leaf_template_sentinel t : leaf_template_check t = Ok tt -> dummy_sentinel (c_pis t).
Proof.
  intros ((L & _) & Z0 & _)%leaf_template_ok_iff. split.
  - apply list_eqb_spec, (zero_on_sub _ 16 4); [lia|]. intros i Hi. apply Z0. right. lia.
  - apply (Z0 0%nat). left. lia.
Qed.

Lemma slots_check_ok ss : slots_check ss = Ok tt <-> Forall (fun s => s_sum s = 0 /\ s_account s = zero4) ss.
Proof.
  induction ss as [|s r IH]; cbn [slots_check]; [split; auto|].
  rewrite !guard_bind_ok_iff, IH, Forall_cons_iff, Z.eqb_eq, list_eqb_spec. tauto.
Qed.

(* header block hash 3..6 and the whole exit-slot region 8 .. 8+10n-1 *)
Definition priv_inspected (n i : nat) : Prop := (3 <= i <= 6)%nat \/ (8 <= i < 8 + 10 * n)%nat.

Lemma slots_zero_iff l count : forall cur, (cur + 5 * count <= length l)%nat ->
  Forall (fun s => s_sum s = 0 /\ s_account s = zero4) (slots_at l cur count) <-> zero_on l cur (cur + 5 * count).
Proof.
  induction count as [|c IH]; intros cur L; cbn [slots_at].
  - split; [intros _ i Hi; lia|constructor].
  - rewrite Forall_cons_iff, IH by lia. cbn [s_sum s_account]. split.
    + intros ((S0 & A%sub_zero_on) & Z0) i Hi. destruct (Nat.eq_dec i cur) as [->|]; [exact S0|].
      destruct (Nat.lt_ge_cases i (cur + 5)); [apply A|apply Z0]; lia.
    + intro Z0. split; [split; [|apply zero_on_sub; [lia|intros i Hi]]|intros i Hi]; apply Z0; lia.
Qed.

Lemma priv_parsed {B} pis (k : PrivPI -> res B) b :
  (s <-? reclass (parse_priv_u64 pis) T_PARSE ;; k s) = Ok b <-> exists n, wf_priv n pis /\ k (layout_priv n pis) = Ok b.
Proof.
  rewrite rbind_ok_iff. split.
  - intros (s & (n & W & ->)%reclass_ok%priv_accept_iff & H). eauto.
  - intros (n & W & H). exists (layout_priv n pis). split; [apply reclass_ok, priv_accept_iff; eauto|exact H].
Qed.

Lemma private_batch_template_ok_iff t :
  private_batch_template_check t = Ok tt <->
  exists n, wf_priv n (c_pis t) /\ (forall i, priv_inspected n i -> at_ (c_pis t) i = 0) /\ c_ok t = true.
Proof.
  unfold private_batch_template_check. rewrite priv_parsed. apply ex_iff. intro n.
  apply and_iff_l. intros (_ & L & _). cbn [pb_bh pb_slots layout_priv]. split.
  - intros [B%list_eqb_spec%sub_zero_on [SC%slots_check_ok V%guard_ok_iff]%rbind_unit_ok_iff]%guard_bind_ok_iff.
    apply slots_zero_iff in SC; [|lia]. split; [|exact V]. intros i [Hi|Hi]; [apply B|apply SC]; lia.
  - intros [Z0 V]. rewrite (zero_on_sub _ 3 4), (proj2 (slots_check_ok _)), V; [reflexivity|apply slots_zero_iff; [lia|]|lia|];
      intros i Hi; apply Z0; [right|left]; lia.
Qed.

Lemma private_batch_template_sentinel t : private_batch_template_check t = Ok tt -> is_dummy_inner (c_pis t) = true.
Proof.
  intros (n & (_ & L & _) & Z0 & _)%private_batch_template_ok_iff.
  apply list_eqb_spec, (zero_on_sub _ 3 4); [lia|]. intros i Hi. apply Z0. left. lia.
Qed.
