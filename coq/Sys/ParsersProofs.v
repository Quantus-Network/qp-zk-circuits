(* Proofs about the public-input parser model (C24) and the proof-count arithmetic (C29).
   The specification vocabulary ([at_], [sub], [u32_at], [digest_at], [wf_*], [layout_*], [valid_*])
   is independent of the parsers: positional predicates over the input vector.
   Each parser gets one theorem, [reads (parse pis) (wf pis) (layout pis)]: it never reaches the model's
   rendering of an index panic, it accepts exactly the well-formed vectors, and it returns their layout.
   Exact acceptance, totality, agreement of the u64 and the felt parsers and the round trips are read
   off from these. *)
From V.Base Require Import Common.
From V.Generated Require Import Constants.
From V.Sys Require Import Parsers.

Definition at_ (l : list Z) (i : nat) : Z := nth i l 0.
Definition sub (l : list Z) (a n : nat) : list Z := firstn n (skipn a l).
Definition is_u32P (x : Z) : Prop := 0 <= x < two32.
Definition canonP (x : Z) : Prop := 0 <= x < p.
Definition is_u64P (x : Z) : Prop := 0 <= x < two64.
Definition u32_at (l : list Z) (i : nat) : Prop := is_u32P (at_ l i).
(* the four limbs starting at [a] are canonical field elements *)
Definition digest_at (l : list Z) (a : nat) : Prop := forall k, (k < 4)%nat -> canonP (at_ l (a + k)).
(* a digest value: exactly four limbs, each below p *)
Definition digestP (d : list Z) : Prop := length d = 4%nat /\ Forall canonP d.

(* results compared by class: Ok with the value, or "some error" *)
Definition res_class {A} (r : res A) : option A := match r with Ok a => Some a | Err _ => None end.

(* record regions: [count] slots of 5 felts / digests of 4 felts starting at [cur] *)
Fixpoint slots_at (l : list Z) (cur count : nat) : list Slot :=
  match count with
  | O => []
  | S c => mkSlot (at_ l cur) (sub l (cur + 1) 4) :: slots_at l (cur + 5) c
  end.
Fixpoint digests_at (l : list Z) (cur count : nat) : list (list Z) :=
  match count with
  | O => []
  | S c => sub l cur 4 :: digests_at l (cur + 4) c
  end.
Definition slots_wf (l : list Z) (cur count : nat) : Prop :=
  forall j, (j < count)%nat -> u32_at l (cur + 5 * j) /\ digest_at l (cur + 5 * j + 1).
Definition digests_wf (l : list Z) (cur count : nat) : Prop :=
  forall j, (j < count)%nat -> digest_at l (cur + 4 * j).

Definition wf_leaf (pis : list Z) : Prop :=
  length pis = 21%nat /\
  u32_at pis 0 /\ u32_at pis 1 /\ u32_at pis 2 /\ u32_at pis 3 /\
  digest_at pis 4 /\ digest_at pis 8 /\ digest_at pis 12 /\ digest_at pis 16 /\
  u32_at pis 20.

Definition layout_leaf (pis : list Z) : LeafPI :=
  mkLeafPI (at_ pis 0) (at_ pis 1) (at_ pis 2) (at_ pis 3)
           (sub pis 4 4) (sub pis 8 4) (sub pis 12 4) (sub pis 16 4) (at_ pis 20).

Definition wf_priv (n : nat) (pis : list Z) : Prop :=
  (1 <= n <= 64)%nat /\ length pis = (8 + 21 * n)%nat /\
  at_ pis 0 = Z.of_nat (2 * n) /\ u32_at pis 1 /\ u32_at pis 2 /\ digest_at pis 3 /\ u32_at pis 7 /\
  slots_wf pis 8 (2 * n) /\ digests_wf pis (8 + 10 * n) n.
  (* indices 8 + 14 n .. 8 + 21 n are padding: unconstrained *)

Definition layout_priv (n : nat) (pis : list Z) : PrivPI :=
  mkPrivPI (at_ pis 0) (at_ pis 1) (at_ pis 2) (sub pis 3 4) (at_ pis 7)
           (slots_at pis 8 (2 * n)) (digests_at pis (8 + 10 * n) n).

Definition wf_pub (m n : nat) (pis : list Z) : Prop :=
  length pis = (12 + 14 * (m * n))%nat /\
  digest_at pis 0 /\ u32_at pis 4 /\ u32_at pis 5 /\ digest_at pis 6 /\ u32_at pis 10 /\
  at_ pis 11 = Z.of_nat (2 * (m * n)) /\
  slots_wf pis 12 (2 * (m * n)) /\ digests_wf pis (12 + 10 * (m * n)) (m * n).

Definition layout_pub (m n : nat) (pis : list Z) : PubPI :=
  mkPubPI (sub pis 0 4) (at_ pis 4) (at_ pis 5) (sub pis 6 4) (at_ pis 10) (at_ pis 11)
          (slots_at pis 12 (2 * (m * n))) (digests_at pis (12 + 10 * (m * n)) (m * n)).

Definition valid_slot (s : Slot) : Prop := is_u32P (s_sum s) /\ digestP (s_account s).

Definition valid_leaf (s : LeafPI) : Prop :=
  is_u32P (l_asset s) /\ is_u32P (l_out1 s) /\ is_u32P (l_out2 s) /\ is_u32P (l_fee s) /\
  digestP (l_null s) /\ digestP (l_exit1 s) /\ digestP (l_exit2 s) /\ digestP (l_bh s) /\ is_u32P (l_bn s).

Definition valid_priv (n : nat) (s : PrivPI) : Prop :=
  (1 <= n <= 64)%nat /\ pb_num_exit_slots s = Z.of_nat (2 * n) /\
  is_u32P (pb_asset s) /\ is_u32P (pb_fee s) /\ digestP (pb_bh s) /\ is_u32P (pb_bn s) /\
  length (pb_slots s) = (2 * n)%nat /\ Forall valid_slot (pb_slots s) /\
  length (pb_nulls s) = n /\ Forall digestP (pb_nulls s).

Definition valid_pub (m n : nat) (s : PubPI) : Prop :=
  (1 <= m <= 64)%nat /\ (1 <= n <= 64)%nat /\
  digestP (pu_addr s) /\ is_u32P (pu_asset s) /\ is_u32P (pu_fee s) /\ digestP (pu_bh s) /\ is_u32P (pu_bn s) /\
  pu_total s = Z.of_nat (2 * (m * n)) /\
  length (pu_slots s) = (2 * (m * n))%nat /\ Forall valid_slot (pu_slots s) /\
  length (pu_nulls s) = (m * n)%nat /\ Forall digestP (pu_nulls s).

Lemma guard_true c : guard true c = Ok tt.
Proof. reflexivity. Qed.

Lemma rbind_ok {A B} (m : res A) (f : A -> res B) a : m = Ok a -> rbind m f = f a.
Proof. intros ->. reflexivity. Qed.

Lemma rbind_assoc {A B C} (m : res A) (f : A -> res B) (g : B -> res C) :
  rbind (rbind m f) g = rbind m (fun x => rbind (f x) g).
Proof. destruct m; reflexivity. Qed.

(* a bind after a step that can only return [w] *)
Lemma rbind_ok_at {A B} (m : res A) (P : Prop) w (k : A -> res B) b :
  (forall a, m = Ok a <-> P /\ a = w) -> (rbind m k = Ok b <-> P /\ k w = Ok b).
Proof.
  intro H. rewrite rbind_ok_iff. split.
  - intros (a & [HP ->]%H & E). auto.
  - intros [HP E]. exists w. split; [apply H; auto|exact E].
Qed.

(** * What a computation reads

   [reads m C w]: [m] never panics, and it succeeds exactly when [C] holds, then with the value [w].
   A parser is a chain of binds whose steps each read a fixed position of the input, so its
   [reads] statement is derived step by step with [reads_bind]; the condition that comes out is the
   conjunction of the checks in the order the parser makes them. *)

Definition reads {A} (m : res A) (C : Prop) (w : A) : Prop :=
  safe m /\ forall s, m = Ok s <-> C /\ s = w.

Lemma reads_safe {A} (m : res A) C w : reads m C w -> safe m.
Proof. intros [S _]. exact S. Qed.
Lemma reads_ok_iff {A} (m : res A) C w : reads m C w -> forall s, m = Ok s <-> C /\ s = w.
Proof. intros [_ H]. exact H. Qed.

Lemma reads_is_ok {A} (m : res A) C w : reads m C w -> (is_ok m = true <-> C).
Proof. intros [_ H]. rewrite is_ok_iff. split; [intros [a [c _]%H]; exact c|intro c; exists w; apply H; auto]. Qed.

Lemma reads_ok {A} (a : A) : reads (Ok a) True a.
Proof. split; [apply safe_ok|]. intro s. split; [intros [= <-]; auto|intros [_ ->]; reflexivity]. Qed.

Lemma reads_guard b c (P : Prop) : c <> PANIC -> (b = true <-> P) -> reads (guard b c) P tt.
Proof.
  intros Hc HP. split.
  - destruct b; [apply safe_ok|apply safe_err, Hc].
  - intros []. rewrite guard_ok_iff, HP. tauto.
Qed.

Lemma reads_iff {A} (m : res A) C C' w : reads m C w -> (C <-> C') -> reads m C' w.
Proof. intros [Sm Hm] E. split; [exact Sm|]. intro s. rewrite <- E. apply Hm. Qed.

(* the continuation is only looked at where [m] succeeds *)
Lemma reads_bind {A B} (m : res A) C w (k : A -> res B) D z :
  reads m C w -> (C -> reads (k w) D z) -> reads (rbind m k) (C /\ D) z.
Proof.
  intros [Sm Hm] Hk. split.
  - apply safe_bind; [exact Sm|]. intros a E. apply Hm in E as [c ->]. apply (Hk c).
  - intro s. rewrite (rbind_ok_at _ _ _ _ _ Hm), and_assoc. apply and_iff_l. intro c. apply (Hk c).
Qed.

Lemma reads_map {A B} (m : res A) C w (f : A -> B) : reads m C w -> reads (x <-? m ;; Ok (f x)) C (f w).
Proof. intro R. eapply reads_iff; [eapply reads_bind; [exact R|intros _; apply reads_ok]|tauto]. Qed.

(* a check that the rest of the chain implies anyway does not show in the condition *)
Lemma reads_bind_implied {A B} (m : res A) C w (k : A -> res B) D z :
  reads m C w -> (C -> reads (k w) D z) -> (D -> C) -> reads (rbind m k) D z.
Proof. intros Rm Rk I. eapply reads_iff; [exact (reads_bind _ _ _ _ _ _ Rm Rk)|tauto]. Qed.

Lemma reads_agree {A} (m1 m2 : res A) C w : reads m1 C w -> reads m2 C w -> res_class m1 = res_class m2.
Proof.
  intros [_ H1] [_ H2]. destruct m1 as [a|c], m2 as [b|d]; try reflexivity.
  - destruct (proj1 (H1 a) eq_refl) as [_ ->], (proj1 (H2 b) eq_refl) as [_ ->]. reflexivity.
  - discriminate (proj2 (H2 a) (proj1 (H1 a) eq_refl)).
  - discriminate (proj2 (H1 b) (proj1 (H2 b) eq_refl)).
Qed.

(* one step along a bind chain: [t] proves what the head reads; that it succeeded is named [H] where the
   rest needs it *)
Tactic Notation "read" tactic3(t) "as" ident(H) := eapply reads_bind; [t|intro H; cbv beta].
Tactic Notation "read" tactic3(t) := eapply reads_bind; [t|intros _; cbv beta].

Lemma length_sub l a n : (a + n <= length l)%nat -> length (sub l a n) = n.
Proof. intro H. unfold sub. rewrite firstn_length, skipn_length. lia. Qed.

Lemma nth_sub l a n k : (k < n)%nat -> nth k (sub l a n) 0 = at_ l (a + k).
Proof. intro H. unfold sub, at_. rewrite nth_firstn_lt by exact H. apply nth_skipn. Qed.

Lemma Forall_sub (P : Z -> Prop) l a n : Forall P l -> Forall P (sub l a n).
Proof. intro F. apply Forall_firstn, Forall_skipn, F. Qed.

Lemma sub_sub l a n b m : (b + m <= n)%nat -> sub (sub l a n) b m = sub l (a + b) m.
Proof.
  intro H. unfold sub. rewrite skipn_firstn_comm, firstn_firstn, skipn_skipn_add, Nat.min_l by lia. reflexivity.
Qed.

Lemma at_app_len pre l k : at_ (pre ++ l) (length pre + k) = at_ l k.
Proof. unfold at_. apply app_nth2_plus. Qed.
Lemma sub_app_len pre l k n : sub (pre ++ l) (length pre + k) n = sub l k n.
Proof. unfold sub. rewrite <- skipn_skipn_add, (skipn_exact pre l _ eq_refl). reflexivity. Qed.

(* a digest value read off a vector: the window lies inside it and holds canonical limbs *)
Lemma digestP_sub_iff l a : digestP (sub l a 4) <-> (a + 4 <= length l)%nat /\ digest_at l a.
Proof.
  unfold digestP, digest_at. rewrite Forall_forall. split.
  - intros [L F]. split; [unfold sub in L; rewrite firstn_length, skipn_length in L; lia|].
    intros k Hk. rewrite <- (nth_sub l a 4 k Hk). apply F, nth_In. rewrite L. exact Hk.
  - intros [B D]. split; [apply length_sub, B|]. intros x Hx. destruct (In_nth _ _ 0 Hx) as (k & Hk & <-).
    rewrite length_sub in Hk by exact B. rewrite nth_sub by exact Hk. apply D, Hk.
Qed.

Lemma sub_sub_skip l a b n : sub (skipn a l) b n = sub l (a + b) n.
Proof. unfold sub. rewrite skipn_skipn_add. reflexivity. Qed.

Lemma nth_error_app_len {A} (pre l : list A) k : nth_error (pre ++ l) (length pre + k) = nth_error l k.
Proof.
  induction pre as [|x pre IH]; cbn [length app]; [reflexivity|]. cbn [Nat.add nth_error]. exact IH.
Qed.

Lemma is_u32_iff x : is_u32 x = true <-> is_u32P x.
Proof. unfold is_u32, is_u32P. rewrite andb_true_iff, Z.leb_le, Z.ltb_lt. tauto. Qed.

Lemma is_u32P_small x : 0 <= x <= 4294967295 -> is_u32P x.
Proof. unfold is_u32P, two32. lia. Qed.

Lemma is_canon_in_iff x : is_canon_in x = true <-> canonP x.
Proof.
  unfold is_canon_in, canonP. rewrite andb_true_iff, Z.leb_le, Z.ltb_lt.
  change INPUTS_GOLDILOCKS_ORDER with p. tauto.
Qed.

Lemma forallb_canon_iff l : forallb is_canon_in l = true <-> Forall canonP l.
Proof. apply forallb_Forall_iff. intros x _. apply is_canon_in_iff. Qed.

Lemma get_ok_iff l i v : get l i = Ok v <-> (i < length l)%nat /\ v = at_ l i.
Proof.
  unfold get, at_. destruct (Nat.lt_ge_cases i (length l)) as [H|H].
  - rewrite (nth_error_nth' l 0 H). split; [intros [= <-]; auto|intros [_ ->]; reflexivity].
  - rewrite (proj2 (nth_error_None l i) H). split; [discriminate|lia].
Qed.

Lemma get_in l i : (i < length l)%nat -> get l i = Ok (at_ l i).
Proof. intro H. apply get_ok_iff. auto. Qed.

Lemma get_u32_ok_iff l i v :
  get_u32 l i = Ok v <-> (i < length l)%nat /\ v = at_ l i /\ u32_at l i.
Proof.
  unfold get_u32, u32, u32_at. rewrite (rbind_ok_at _ _ _ _ _ (get_ok_iff l i)), guard_bind_ok_iff, is_u32_iff.
  split; [intros (L & U & [= <-])|intros (L & -> & U)]; auto.
Qed.

Lemma slice_ok_iff l a n s : slice l a n = Ok s <-> (a + n <= length l)%nat /\ s = sub l a n.
Proof.
  unfold slice, sub. destruct (Nat.leb_spec (a + n) (length l)).
  - split; [intro E; inversion E; auto | intros [_ ->]; reflexivity].
  - split; [discriminate | intros [? _]; lia].
Qed.

Lemma slice_in l a n : (a + n <= length l)%nat -> slice l a n = Ok (sub l a n).
Proof. intro H. apply slice_ok_iff. auto. Qed.

Lemma digest4_ok_iff s d : digest4 s = Ok d <-> d = s /\ digestP s.
Proof.
  unfold digest4, digestP. rewrite !guard_bind_ok_iff, Nat.eqb_eq, forallb_canon_iff.
  split; [intros (L & F & E); injection E as <-; auto|intros (-> & L & F); auto].
Qed.

Lemma get_digest_ok_iff l a d :
  get_digest l a = Ok d <-> (a + 4 <= length l)%nat /\ d = sub l a 4 /\ digest_at l a.
Proof.
  unfold get_digest. rewrite (rbind_ok_at _ _ _ _ _ (slice_ok_iff l a 4)), digest4_ok_iff, digestP_sub_iff. tauto.
Qed.

Lemma felts4_ok_iff s d : felts4 s = Ok d <-> d = s /\ length s = 4%nat.
Proof.
  unfold felts4. rewrite guard_bind_ok_iff, Nat.eqb_eq.
  split; [intros (L & E); injection E as <-; auto|intros (-> & L); auto].
Qed.

Lemma get_felts4_ok_iff l a d :
  get_felts4 l a = Ok d <-> (a + 4 <= length l)%nat /\ d = sub l a 4.
Proof.
  unfold get_felts4. rewrite (rbind_ok_at _ _ _ _ _ (slice_ok_iff l a 4)), felts4_ok_iff.
  split; [tauto|intros [L ->]; auto using length_sub].
Qed.

(* in range the readers cannot panic, and what they check is a property of the position *)
Lemma reads_get_u32 l i : (i < length l)%nat -> reads (get_u32 l i) (u32_at l i) (at_ l i).
Proof.
  intro H. unfold get_u32, u32. rewrite get_in by exact H. cbn [rbind].
  apply (reads_map _ _ tt (fun _ => at_ l i)), reads_guard, is_u32_iff. discriminate.
Qed.
Lemma reads_get_digest l a : (a + 4 <= length l)%nat -> reads (get_digest l a) (digest_at l a) (sub l a 4).
Proof.
  intro H. unfold get_digest, digest4. rewrite slice_in by exact H. cbn [rbind].
  apply (reads_iff _ (digestP (sub l a 4))); [unfold digestP|rewrite digestP_sub_iff; tauto].
  read (apply reads_guard, Nat.eqb_eq; discriminate).
  apply (reads_map _ _ tt (fun _ => sub l a 4)), reads_guard, forallb_canon_iff. discriminate.
Qed.

(* the generated offsets, as the list positions they denote *)
Ltac eval_ix :=
  repeat match goal with |- context [ix ?c] => let i := eval cbv in (ix c) in change (ix c) with i end.

Lemma zlen_eqb_true {A} (l : list A) n : (zlen l =? Z.of_nat n) = true <-> length l = n.
Proof. unfold zlen. rewrite Z.eqb_eq. lia. Qed.

(** * Canonical vectors

   On a vector of canonical values the readers of the felt-based parsers are the readers of the u64
   parsers: the limb checks of [digest4] cannot fail. *)

Lemma to_canonical_canon x : is_u64P x -> canonP (to_canonical x).
Proof.
  unfold is_u64P, canonP, to_canonical. change FIELD_ORDER with p.
  destruct (Z.leb_spec p x); unfold p, two64 in *; lia.
Qed.
Lemma to_canonical_id x : canonP x -> to_canonical x = x.
Proof.
  unfold canonP, to_canonical. change FIELD_ORDER with p.
  destruct (Z.leb_spec p x); unfold p in *; lia.
Qed.
Lemma map_to_canonical_canon raw : Forall is_u64P raw -> Forall canonP (map to_canonical raw).
Proof. rewrite Forall_map. apply Forall_impl, to_canonical_canon. Qed.
Lemma map_to_canonical_id l : Forall canonP l -> map to_canonical l = l.
Proof. intro F. rewrite <- (map_id l) at 2. apply map_ext_Forall. revert F. apply Forall_impl, to_canonical_id. Qed.

Lemma digest4_canon s : Forall canonP s -> digest4 s = felts4 s.
Proof.
  intro F. unfold digest4, felts4. rewrite (proj2 (forallb_canon_iff s) F).
  destruct (length s =? 4)%nat; reflexivity.
Qed.
Lemma get_felts4_canon l a : Forall canonP l -> get_felts4 l a = get_digest l a.
Proof.
  intro F. unfold get_felts4, get_digest, slice. destruct (a + 4 <=? length l)%nat; [|reflexivity].
  cbn [rbind]. symmetry. apply digest4_canon, (Forall_sub _ l a 4 F).
Qed.
Lemma reads_get_felts4 l a :
  Forall canonP l -> (a + 4 <= length l)%nat -> reads (get_felts4 l a) (digest_at l a) (sub l a 4).
Proof. intros F H. rewrite get_felts4_canon by exact F. apply reads_get_digest, H. Qed.

(* [get_digest_range pis a (a + 4)] is [get_digest pis a] by computation, for literal [a]; likewise for [get_felts4_range] *)
Lemma leaf_reads pis : reads (parse_leaf_u64 pis) (wf_leaf pis) (layout_leaf pis).
Proof.
  unfold parse_leaf_u64. eval_ix.
  read (apply reads_guard, (zlen_eqb_true pis 21); discriminate) as L.
  do 4 (read (apply reads_get_u32; lia)). do 4 (read (apply reads_get_digest; lia)).
  unfold layout_leaf. apply reads_map, reads_get_u32. lia.
Qed.

Lemma leaf_accept_iff pis s : parse_leaf_u64 pis = Ok s <-> wf_leaf pis /\ s = layout_leaf pis.
Proof. apply reads_ok_iff, leaf_reads. Qed.

(* the felt parser reads the block hash before the exit accounts *)
Lemma leaf_canon_reads pis : Forall canonP pis -> reads (parse_leaf_canon pis) (wf_leaf pis) (layout_leaf pis).
Proof.
  intro F. unfold parse_leaf_canon. eval_ix. eapply reads_iff.
  - read (apply reads_guard, (zlen_eqb_true pis 21); discriminate) as L.
    do 4 (read (apply reads_get_u32; lia)).
    do 4 (read (apply reads_get_felts4; [exact F|lia])).
    unfold layout_leaf. apply reads_map, reads_get_u32. lia.
  - do 6 apply and_iff_compat_l. split; intros (B & C & D & U); auto.
Qed.

Lemma slots_at_length l cur count : length (slots_at l cur count) = count.
Proof. revert cur; induction count as [|c IH]; intro cur; cbn [slots_at length]; [reflexivity|rewrite IH; reflexivity]. Qed.
Lemma digests_at_length l cur count : length (digests_at l cur count) = count.
Proof. revert cur; induction count as [|c IH]; intro cur; cbn [digests_at length]; [reflexivity|rewrite IH; reflexivity]. Qed.
Lemma slots_at_nth l cur count j d :
  (j < count)%nat -> nth j (slots_at l cur count) d = mkSlot (at_ l (cur + 5 * j)) (sub l (cur + 5 * j + 1) 4).
Proof.
  revert cur j; induction count as [|c IH]; intros cur j H; [lia|].
  cbn [slots_at]. destruct j as [|j]; cbn [nth].
  - rewrite Nat.mul_0_r, Nat.add_0_r. reflexivity.
  - rewrite IH by lia. replace (cur + 5 + 5 * j)%nat with (cur + 5 * S j)%nat by lia. reflexivity.
Qed.
Lemma digests_at_nth l cur count j d :
  (j < count)%nat -> nth j (digests_at l cur count) d = sub l (cur + 4 * j) 4.
Proof.
  revert cur j; induction count as [|c IH]; intros cur j H; [lia|].
  cbn [digests_at]. destruct j as [|j]; cbn [nth].
  - rewrite Nat.mul_0_r, Nat.add_0_r. reflexivity.
  - rewrite IH by lia. replace (cur + 4 + 4 * j)%nat with (cur + 4 * S j)%nat by lia. reflexivity.
Qed.

(* records of width [w] from [cur]: the first one, and the rest from [cur + w] *)
Lemma forall_stride_S (w : nat) (P : nat -> Prop) cur c :
  (forall j, (j < S c)%nat -> P (cur + w * j)%nat) <-> P cur /\ forall j, (j < c)%nat -> P (cur + w + w * j)%nat.
Proof.
  split.
  - intro H. split; [rewrite <- (Nat.add_0_r cur), <- (Nat.mul_0_r w); apply H; lia|].
    intros j Hj. replace (cur + w + w * j)%nat with (cur + w * S j)%nat by lia. apply H. lia.
  - intros [H0 H] [|j] Hj; [rewrite Nat.mul_0_r, Nat.add_0_r; exact H0|].
    replace (cur + w * S j)%nat with (cur + w + w * j)%nat by lia. apply H. lia.
Qed.

Lemma slots_wf_S l cur c :
  slots_wf l cur (S c) <-> u32_at l cur /\ digest_at l (cur + 1) /\ slots_wf l (cur + 5) c.
Proof. rewrite <- and_assoc. exact (forall_stride_S 5 (fun i => u32_at l i /\ digest_at l (i + 1)) cur c). Qed.
Lemma digests_wf_S l cur c : digests_wf l cur (S c) <-> digest_at l cur /\ digests_wf l (cur + 4) c.
Proof. exact (forall_stride_S 4 (digest_at l) cur c). Qed.
Lemma slots_wf_O l cur : slots_wf l cur 0.
Proof. intros j H. lia. Qed.
Lemma digests_wf_O l cur : digests_wf l cur 0.
Proof. intros j H. lia. Qed.

(* the checked cursor loops of the private-batch u64 parser; in range their own bounds checks pass *)
Lemma reads_read_slots l cur c :
  (cur + 5 * c <= length l)%nat -> reads (read_slots l cur c) (slots_wf l cur c) (slots_at l cur c).
Proof.
  revert cur; induction c as [|c IH]; intros cur B; cbn [read_slots slots_at].
  - apply (reads_iff _ _ _ _ (reads_ok [])). split; [intros _; apply slots_wf_O|auto].
  - eapply reads_iff; [|symmetry; apply slots_wf_S].
    rewrite guard_bind_true by (apply Nat.ltb_lt; lia). read (apply reads_get_u32; lia).
    rewrite guard_bind_true by (apply Nat.leb_le; lia). read (apply reads_get_digest; lia).
    apply reads_map, IH. lia.
Qed.
Lemma reads_read_digests l cur c :
  (cur + 4 * c <= length l)%nat -> reads (read_digests l cur c) (digests_wf l cur c) (digests_at l cur c).
Proof.
  revert cur; induction c as [|c IH]; intros cur B; cbn [read_digests digests_at].
  - apply (reads_iff _ _ _ _ (reads_ok [])). split; [intros _; apply digests_wf_O|auto].
  - eapply reads_iff; [|symmetry; apply digests_wf_S].
    rewrite guard_bind_true by (apply Nat.leb_le; lia). read (apply reads_get_digest; lia).
    apply reads_map, IH. lia.
Qed.

(* the unchecked loops of the public-batch parser: in range they coincide with the checked ones *)
Lemma read_slots_unchecked_eq l cur count :
  (cur + 5 * count <= length l)%nat -> read_slots_unchecked l cur count = read_slots l cur count.
Proof.
  revert cur. induction count as [|c IH]; intros cur B; cbn [read_slots read_slots_unchecked]; [reflexivity|].
  rewrite guard_bind_true by (apply Nat.ltb_lt; lia).
  destruct (get_u32 l cur); cbn [rbind]; [|reflexivity].
  rewrite guard_bind_true by (apply Nat.leb_le; lia). rewrite IH by lia. reflexivity.
Qed.
Lemma read_digests_unchecked_eq l cur count :
  (cur + 4 * count <= length l)%nat -> read_digests_unchecked l cur count = read_digests l cur count.
Proof.
  revert cur. induction count as [|c IH]; intros cur B; cbn [read_digests read_digests_unchecked]; [reflexivity|].
  rewrite guard_bind_true by (apply Nat.leb_le; lia). rewrite IH by lia. reflexivity.
Qed.

(* the chunk loops of the felt parser make no bounds checks of their own: on canonical values they are the
   unchecked loops *)
Lemma felt_slot_canon l cur :
  Forall canonP l -> (cur + 5 <= length l)%nat ->
  felt_slot (sub l cur 5) = s <-? get_u32 l cur ;; a <-? get_digest l (cur + 1) ;; Ok (mkSlot s a).
Proof.
  intros F B. unfold felt_slot, get_u32 at 1, get_felts4, get_u32, get_digest.
  rewrite !get_in, !slice_in by (rewrite ?length_sub; lia). cbn [rbind].
  unfold at_ at 1. rewrite nth_sub, Nat.add_0_r, sub_sub by lia.
  rewrite <- digest4_canon by (apply Forall_sub, F). reflexivity.
Qed.

Lemma mapM_felt_slot_canon l cur c :
  Forall canonP l -> (cur + 5 * c <= length l)%nat ->
  mapM felt_slot (firstn c (chunks 5 (skipn cur l))) = read_slots_unchecked l cur c.
Proof.
  intro F. revert cur; induction c as [|c IH]; intros cur B; [reflexivity|].
  rewrite chunks_step by lia. fold (sub l cur 5). cbn [firstn mapM read_slots_unchecked].
  rewrite felt_slot_canon, IH, rbind_assoc by (assumption || lia).
  destruct (get_u32 l cur); cbn [rbind]; [rewrite rbind_assoc|]; reflexivity.
Qed.
Lemma mapM_felts4_canon l cur c :
  Forall canonP l -> (cur + 4 * c <= length l)%nat ->
  mapM felts4 (firstn c (chunks 4 (skipn cur l))) = read_digests_unchecked l cur c.
Proof.
  intro F. revert cur; induction c as [|c IH]; intros cur B; [reflexivity|].
  rewrite chunks_step by lia. fold (sub l cur 4). cbn [firstn mapM read_digests_unchecked].
  unfold get_digest. rewrite slice_in by lia. cbn [rbind].
  rewrite digest4_canon, IH by (try apply Forall_sub; assumption || lia). reflexivity.
Qed.

Lemma validate_ok_iff c u : validate_proof_count c = Ok u <-> c <> 0 /\ c <= 64.
Proof.
  unfold validate_proof_count. change MAX_PROOF_COUNT with 64.
  rewrite !guard_bind_ok_iff, negb_true_iff, Z.eqb_neq, Z.leb_le. destruct u. tauto.
Qed.
Lemma reads_validate c : 0 <= c -> reads (validate_proof_count c) (1 <= c <= 64) tt.
Proof.
  intro Hc. split.
  - unfold validate_proof_count. do 2 (apply safe_guard_bind; [discriminate|intros _]). apply safe_ok.
  - intros []. rewrite validate_ok_iff. intuition lia.
Qed.

Lemma is_ok_validate_iff c : 0 <= c -> (is_ok (validate_proof_count c) = true <-> 1 <= c <= 64).
Proof. intro Hc. exact (reads_is_ok _ _ _ (reads_validate c Hc)). Qed.

(* the range of a validated count, as the parsers check it and as [wf_priv] and [valid_pub] state it *)
Lemma count_range (n : nat) : 1 <= Z.of_nat n <= 64 <-> (1 <= n <= 64)%nat.
Proof. lia. Qed.

(* the number of leaf proofs the parsers take the vector to aggregate: it is fixed by the length *)
Definition priv_leaves (pis : list Z) : nat := Z.to_nat (Z.of_nat (length pis - 8) / LEAF_PI_LEN).

Lemma priv_leaves_Z pis : Z.of_nat (length pis - 8) / LEAF_PI_LEN = Z.of_nat (priv_leaves pis).
Proof. unfold priv_leaves. change LEAF_PI_LEN with 21. lia. Qed.
Lemma priv_len_iff pis :
  (8 <= length pis)%nat /\ Z.of_nat (length pis - 8) mod LEAF_PI_LEN = 0 <->
  length pis = (8 + 21 * priv_leaves pis)%nat.
Proof. unfold priv_leaves. change LEAF_PI_LEN with 21. lia. Qed.
Lemma wf_priv_leaves n pis : wf_priv n pis -> n = priv_leaves pis.
Proof.
  intros (_ & L & _). unfold priv_leaves. change LEAF_PI_LEN with 21. lia.
Qed.

(* both parsers begin with the two length guards: together they say that the length is 8 + 21 n *)
Lemma reads_priv_len {B} pis (k : res B) D z :
  (length pis = (8 + 21 * priv_leaves pis)%nat -> reads k D z) ->
  reads (_ <-? guard (8 <=? length pis)%nat 20 ;; _ <-? guard (Z.of_nat (length pis - 8) mod LEAF_PI_LEN =? 0) 21 ;; k)
        (length pis = (8 + 21 * priv_leaves pis)%nat /\ D) z.
Proof.
  intro K. eapply reads_iff; [|rewrite <- priv_len_iff, and_assoc; reflexivity].
  read (apply reads_guard, Nat.leb_le; discriminate) as H1. read (apply reads_guard, Z.eqb_eq; discriminate) as H2.
  apply K, priv_len_iff. auto.
Qed.

(* the u32 check of pis[0] is implied by pis[0] = 2n and n <= 64, which the parser checks later *)
Lemma priv_reads pis :
  reads (parse_priv_u64 pis) (wf_priv (priv_leaves pis) pis) (layout_priv (priv_leaves pis) pis).
Proof.
  unfold parse_priv_u64; cbv zeta. rewrite priv_leaves_Z, Nat2Z.id.
  replace (Z.of_nat (priv_leaves pis) * 2) with (Z.of_nat (2 * priv_leaves pis)) by lia. eapply reads_iff.
  - apply reads_priv_len; intro L.
    eapply reads_bind_implied; [apply reads_get_u32; lia| |].
    + intros _. do 2 (read (apply reads_get_u32; lia)). read (apply reads_validate, Nat2Z.is_nonneg).
      read (apply reads_guard, Z.eqb_eq; discriminate).
      read (apply reads_get_digest; lia). read (apply reads_get_u32; lia).
      (* the nullifier cursor 8 + n * 2 * 5 as 8 + 2 * 5 * n, which converts to the 8 + 10 * n of [wf_priv] *)
      rewrite (Nat.mul_comm (priv_leaves pis) 2), (Nat.mul_shuffle0 2 (priv_leaves pis) 5).
      read (apply reads_read_slots; lia). unfold layout_priv. apply reads_map, reads_read_digests. lia.
    + intros (_ & _ & N & A0 & _). apply is_u32P_small. rewrite A0. lia.
  - unfold wf_priv.
    split; [intros (L & U1 & U2 & N%count_range & A0 & R)|intros (N%count_range & L & A0 & U1 & U2 & R)]; auto 7.
Qed.

(* the felt parser validates the count first *)
Lemma priv_canon_reads pis :
  Forall canonP pis ->
  reads (parse_priv_canon pis) (wf_priv (priv_leaves pis) pis) (layout_priv (priv_leaves pis) pis).
Proof.
  intro F. unfold parse_priv_canon; cbv zeta. rewrite priv_leaves_Z, Nat2Z.id.
  replace (Z.of_nat (priv_leaves pis) * 2) with (Z.of_nat (2 * priv_leaves pis)) by lia. eapply reads_iff.
  - apply reads_priv_len; intro L. read (apply reads_validate, Nat2Z.is_nonneg) as N.
    eapply reads_bind_implied; [apply reads_get_u32; lia| |].
    + intros _. read (apply reads_guard, Z.eqb_eq; discriminate). do 2 (read (apply reads_get_u32; lia)).
      read (apply reads_get_felts4; [exact F|lia]). read (apply reads_get_u32; lia).
      rewrite (Nat.mul_comm (priv_leaves pis) 2), (Nat.mul_shuffle0 2 (priv_leaves pis) 5).
      read (rewrite mapM_felt_slot_canon, read_slots_unchecked_eq by (exact F || lia); apply reads_read_slots; lia).
      rewrite mapM_felts4_canon, read_digests_unchecked_eq by (exact F || lia).
      unfold layout_priv. apply reads_map, reads_read_digests. lia.
    + intros (A0 & _). apply is_u32P_small. rewrite A0. lia.
  - unfold wf_priv. split; [intros (L & N%count_range & R)|intros (N%count_range & L & R)]; auto.
Qed.

Lemma reads_priv_exists (m : res PrivPI) pis s :
  reads m (wf_priv (priv_leaves pis) pis) (layout_priv (priv_leaves pis) pis) ->
  (m = Ok s <-> exists n, wf_priv n pis /\ s = layout_priv n pis).
Proof.
  intros [_ R]. split.
  - intro H. exists (priv_leaves pis). apply R, H.
  - intros (n & W & E). pose proof (wf_priv_leaves n pis W). subst n. apply R. auto.
Qed.

Lemma priv_accept_iff pis s :
  parse_priv_u64 pis = Ok s <-> exists n, wf_priv n pis /\ s = layout_priv n pis.
Proof. apply reads_priv_exists, priv_reads. Qed.

Lemma wrap64_small x : 0 <= x < two64 -> wrap64 x = x.
Proof. intro H. unfold wrap64. apply Z.mod_small. exact H. Qed.

(* [wrap64 x] is [x] wherever [lia] bounds [x]; inner occurrences first, the bound of an outer one depends on them *)
Ltac unwrap :=
  repeat match goal with |- context [wrap64 ?x] => rewrite (wrap64_small x) by (unfold two64; lia) end.

Lemma checked_mul_some a b : 0 <= a * b < two64 -> checked_mul a b = Some (a * b).
Proof. intro H. unfold checked_mul. destruct (Z.ltb_spec (a * b) two64); [reflexivity|lia]. Qed.
Lemma checked_add_some a b : 0 <= a + b < two64 -> checked_add a b = Some (a + b).
Proof. intro H. unfold checked_add. destruct (Z.ltb_spec (a + b) two64); [reflexivity|lia]. Qed.

(* a checked operation ([checked_mul], [checked_add] unfolded) in front of the rest of an option chain, and at its end *)
Lemma checked_bind_some {B} x (k : Z -> option B) r :
  match (if x <? two64 then Some x else None) with Some v => k v | None => None end = Some r <->
  x < two64 /\ k x = Some r.
Proof. destruct (Z.ltb_spec x two64); split; [auto|intros [_ H']; exact H'|discriminate|intros [? _]; lia]. Qed.
Lemma checked_some_iff x v : (if x <? two64 then Some x else None) = Some v <-> x < two64 /\ v = x.
Proof.
  destruct (Z.ltb_spec x two64); split;
    [intro E; inversion E; subst; auto|intros [_ ->]; reflexivity|discriminate|intros [? _]; lia].
Qed.

(* try_pi_len computes the exact length whenever no intermediate overflows, and the only
   intermediate that is not bounded by the final sum (when m = 0) is n * 2 *)
Lemma try_pi_len_some_iff m n v :
  0 <= m -> 0 <= n ->
  (try_pi_len m n = Some v <-> 2 * n < two64 /\ pi_len_exact m n < two64 /\ v = pi_len_exact m n).
Proof.
  intros Hm Hn. assert (0 <= m * n) as Hmn by (apply Z.mul_nonneg_nonneg; assumption).
  unfold try_pi_len, checked_mul, checked_add, pi_len_exact.
  change PUBLIC_EXIT_SLOT_LEN with 5. change PUBLIC_HEADER_LEN with 12.
  split.
  - intro H. do 6 (apply checked_bind_some in H as [? H]). apply checked_some_iff in H as [? ->]. lia.
  - intros (A & B & ->). do 6 (apply checked_bind_some; split; [lia|]). apply checked_some_iff. lia.
Qed.

Lemma try_pi_len_none_iff m n :
  0 <= m -> 0 <= n -> (try_pi_len m n = None <-> 2 * n >= two64 \/ pi_len_exact m n >= two64).
Proof.
  intros Hm Hn. pose proof (fun v => try_pi_len_some_iff m n v Hm Hn) as S.
  destruct (try_pi_len m n) as [v|].
  - destruct (proj1 (S v) eq_refl) as (A & B & _). split; [discriminate|lia].
  - split; [intros _|reflexivity].
    assert (~ (2 * n < two64 /\ pi_len_exact m n < two64)); [|lia].
    intros [A B]. discriminate (proj2 (S _) (conj A (conj B eq_refl))).
Qed.

Lemma small_product m n : 1 <= m <= 64 -> 1 <= n <= 64 -> 1 <= m * n <= 4096.
Proof. intros. nia. Qed.

Lemma try_pi_len_valid m n :
  1 <= m <= 64 -> 1 <= n <= 64 -> try_pi_len m n = Some (pi_len_exact m n) /\ pi_len_exact m n = 12 + 14 * (m * n).
Proof.
  intros Hm Hn. pose proof (small_product m n Hm Hn) as P.
  split; [apply try_pi_len_some_iff|]; unfold pi_len_exact, two64; lia.
Qed.

Lemma pi_len_wrapping_valid m n :
  1 <= m <= 64 -> 1 <= n <= 64 -> pi_len_wrapping m n = pi_len_exact m n.
Proof.
  intros Hm Hn. pose proof (small_product m n Hm Hn) as P.
  unfold pi_len_wrapping, pi_len_exact. change PUBLIC_EXIT_SLOT_LEN with 5. change PUBLIC_HEADER_LEN with 12.
  unwrap. lia.
Qed.

Lemma pr_layout_valid n :
  1 <= n <= 64 ->
  pr_exit_slots_count n = 2 * n /\ pr_nullifiers_count n = n /\ pr_exit_slots_start = 8 /\
  pr_nullifiers_start n = 8 + 10 * n /\ pr_pi_len n = 8 + 21 * n.
Proof.
  intro Hn. unfold pr_nullifiers_start, pr_pi_len, pr_exit_slots_count, pr_nullifiers_count, pr_exit_slots_start.
  change PR_OUT_HEADER_LEN with 8. change PR_OUT_EXIT_SLOT_LEN with 5. change PR_LEAF_PI_LEN with 21.
  unwrap. repeat split; lia.
Qed.
(* [pu_pi_len] is [pi_len_wrapping] spelled with the aggregator's constants *)
Lemma pu_layout_valid m n :
  1 <= m <= 64 -> 1 <= n <= 64 ->
  pu_total_exit_slots m n = 2 * (m * n) /\ pu_total_nullifiers m n = m * n /\ pu_exit_slots_start = 12 /\
  pu_nullifiers_start m n = 12 + 10 * (m * n) /\ pu_pi_len m n = pi_len_exact m n.
Proof.
  intros Hm Hn. pose proof (small_product m n Hm Hn) as P.
  unfold pu_nullifiers_start, pu_total_exit_slots, pu_total_nullifiers, pu_exit_slots_start, pr_exit_slots_count, pr_nullifiers_count.
  change PU_HEADER_LEN with 12. change PR_OUT_EXIT_SLOT_LEN with 5.
  do 4 (split; [unwrap; lia|]). exact (pi_len_wrapping_valid m n Hm Hn).
Qed.

(* what the public-batch parser computes from validated counts, in the terms of [wf_pub] *)
Lemma pub_arith_valid (M N : nat) :
  1 <= Z.of_nat M <= 64 -> 1 <= Z.of_nat N <= 64 ->
  try_pi_len (Z.of_nat M) (Z.of_nat N) = Some (Z.of_nat (12 + 14 * (M * N))) /\
  checked_mul (Z.of_nat M) (wrap64 (Z.of_nat N * 2)) = Some (Z.of_nat (2 * (M * N))) /\
  is_u32 (Z.of_nat (2 * (M * N))) = true /\
  checked_mul (Z.of_nat M) (Z.of_nat N) = Some (Z.of_nat (M * N)).
Proof.
  intros HM HN. set (m := Z.of_nat M). set (n := Z.of_nat N).
  assert (1 <= m * n <= 4096) as P by (apply small_product; lia).
  destruct (try_pi_len_valid m n) as [T X]; [lia..|].
  replace (Z.of_nat (12 + 14 * (M * N))) with (pi_len_exact m n) by lia.
  replace (Z.of_nat (2 * (M * N))) with (m * (n * 2)) by lia.
  replace (Z.of_nat (M * N)) with (m * n) by lia.
  split; [exact T|]. split; [unwrap; apply checked_mul_some; unfold two64; lia|].
  split; [apply is_u32_iff, is_u32P_small; lia|apply checked_mul_some; unfold two64; lia].
Qed.

(* once both counts are validated the checked arithmetic succeeds ([pub_arith_valid]) and the expected length
   puts every later read in range; the u32 check of pis[11] is implied by pis[11] = 2mn *)
Lemma pub_reads pis (M N : nat) :
  reads (parse_pub_u64 pis (Z.of_nat M) (Z.of_nat N))
        (1 <= Z.of_nat M <= 64 /\ 1 <= Z.of_nat N <= 64 /\ wf_pub M N pis) (layout_pub M N pis).
Proof.
  unfold parse_pub_u64. eval_ix. cbv zeta.
  read (apply reads_validate, Nat2Z.is_nonneg) as HM. read (apply reads_validate, Nat2Z.is_nonneg) as HN.
  destruct (pub_arith_valid M N HM HN) as (T & C1 & U & C2). rewrite T, C1, C2, !Nat2Z.id. clear T C1 C2.
  read (apply reads_guard, (zlen_eqb_true pis _); discriminate) as L.
  rewrite guard_bind_true by exact U.
  read (apply reads_get_digest; lia). do 2 (read (apply reads_get_u32; lia)).
  read (apply reads_get_digest; lia). read (apply reads_get_u32; lia).
  eapply reads_bind_implied; [apply reads_get_u32; lia| |].
  - intros _. read (apply reads_guard, Z.eqb_eq; discriminate).
    rewrite (Nat.mul_shuffle0 2 (M * N) 5).
    read (rewrite read_slots_unchecked_eq by lia; apply reads_read_slots; lia).
    rewrite read_digests_unchecked_eq by lia. unfold layout_pub. apply reads_map, reads_read_digests. lia.
  - intros (A11 & _). unfold u32_at. rewrite A11. apply is_u32_iff, U.
Qed.

Lemma safe_parse_pub_u64 pis m n : 0 <= m -> 0 <= n -> safe (parse_pub_u64 pis m n).
Proof. intros Hm Hn. rewrite <- (Z2Nat.id m), <- (Z2Nat.id n) by assumption. exact (reads_safe _ _ _ (pub_reads pis _ _)). Qed.

(** * Valid structures and well-formed vectors

   A vector of the right length is well-formed exactly when its layout is a valid structure, and the layout of a
   serialized valid structure is that structure.  With the acceptance theorems this gives the round trips
   parse (serialize s) = Ok s. *)

Lemma slots_at_valid l cur c :
  (cur + 5 * c <= length l)%nat -> (Forall valid_slot (slots_at l cur c) <-> slots_wf l cur c).
Proof.
  revert cur; induction c as [|c IH]; intros cur B; cbn [slots_at].
  - split; [intros _; apply slots_wf_O|constructor].
  - rewrite Forall_cons_iff, slots_wf_S, IH by lia. unfold valid_slot, u32_at. cbn [s_sum s_account].
    rewrite digestP_sub_iff. intuition lia.
Qed.
Lemma digests_at_valid l cur c :
  (cur + 4 * c <= length l)%nat -> (Forall digestP (digests_at l cur c) <-> digests_wf l cur c).
Proof.
  revert cur; induction c as [|c IH]; intros cur B; cbn [digests_at].
  - split; [intros _; apply digests_wf_O|constructor].
  - rewrite Forall_cons_iff, digests_wf_S, IH, digestP_sub_iff by lia. intuition lia.
Qed.

Lemma wf_leaf_valid pis : length pis = 21%nat -> (wf_leaf pis <-> valid_leaf (layout_leaf pis)).
Proof.
  intro L. unfold wf_leaf, valid_leaf, u32_at. cbn [layout_leaf l_asset l_out1 l_out2 l_fee l_null l_exit1 l_exit2 l_bh l_bn].
  rewrite !digestP_sub_iff. intuition lia.
Qed.
Lemma wf_priv_valid n pis :
  length pis = (8 + 21 * n)%nat -> (wf_priv n pis <-> valid_priv n (layout_priv n pis)).
Proof.
  intro L. unfold wf_priv, valid_priv, u32_at.
  cbn [layout_priv pb_num_exit_slots pb_asset pb_fee pb_bh pb_bn pb_slots pb_nulls].
  rewrite slots_at_length, digests_at_length, digestP_sub_iff, slots_at_valid, digests_at_valid by lia. intuition lia.
Qed.
Lemma wf_pub_valid m n pis :
  (1 <= m <= 64)%nat -> (1 <= n <= 64)%nat -> length pis = (12 + 14 * (m * n))%nat ->
  (wf_pub m n pis <-> valid_pub m n (layout_pub m n pis)).
Proof.
  intros M N L. unfold wf_pub, valid_pub, u32_at.
  cbn [layout_pub pu_addr pu_asset pu_fee pu_bh pu_bn pu_total pu_slots pu_nulls].
  rewrite slots_at_length, digests_at_length, !digestP_sub_iff, slots_at_valid, digests_at_valid by lia. intuition lia.
Qed.

Lemma slots_at_app pre l cur c : slots_at (pre ++ l) (length pre + cur) c = slots_at l cur c.
Proof.
  revert cur; induction c as [|c IH]; intro cur; cbn [slots_at]; [reflexivity|].
  rewrite <- !Nat.add_assoc, at_app_len, sub_app_len, IH. reflexivity.
Qed.
Lemma digests_at_app pre l cur c : digests_at (pre ++ l) (length pre + cur) c = digests_at l cur c.
Proof.
  revert cur; induction c as [|c IH]; intro cur; cbn [digests_at]; [reflexivity|].
  rewrite <- !Nat.add_assoc, sub_app_len, IH. reflexivity.
Qed.

(* a serialized list of records, read back from its start *)
Lemma slots_region slots post :
  Forall valid_slot slots ->
  length (flat_map flat_slot slots) = (5 * length slots)%nat /\
  slots_at (flat_map flat_slot slots ++ post) 0 (length slots) = slots.
Proof.
  intro F. induction F as [|[sum acc] rest [_ [La _]] _ (IL & IA)]; [split; reflexivity|].
  cbn [s_account] in La. destruct (length4_inv _ La) as (a & b & c & e & ->).
  cbn [flat_map flat_slot s_sum s_account app length slots_at]. split; [rewrite IL; lia|].
  exact (f_equal (cons _) (eq_trans (slots_at_app [sum; a; b; c; e] _ 0 _) IA)).
Qed.
Lemma digests_region ds post :
  Forall digestP ds ->
  length (concat ds) = (4 * length ds)%nat /\ digests_at (concat ds ++ post) 0 (length ds) = ds.
Proof.
  intro F. induction F as [|d rest [Ld _] _ (IL & IA)]; [split; reflexivity|].
  destruct (length4_inv _ Ld) as (a & b & c & e & ->).
  cbn [concat app length digests_at]. split; [rewrite IL; lia|].
  exact (f_equal (cons _) (eq_trans (digests_at_app [a; b; c; e] _ 0 _) IA)).
Qed.

(* [pre], then the slots, then the digests, then [post]: both record regions read back *)
Lemma records_region pre slots ds post a c b d :
  Forall valid_slot slots -> Forall digestP ds ->
  a = length pre -> c = length slots -> b = (a + 5 * c)%nat -> d = length ds ->
  let l := pre ++ flat_map flat_slot slots ++ concat ds ++ post in
  length l = (b + 4 * d + length post)%nat /\ slots_at l a c = slots /\ digests_at l b d = ds.
Proof.
  intros Fs Fd Ha -> Hb ->. cbv zeta.
  destruct (slots_region slots (concat ds ++ post) Fs) as (LS & A1). destruct (digests_region ds post Fd) as (LD & A2).
  split; [rewrite !app_length, LS, LD; lia|].
  replace a with (length pre + 0)%nat by lia. rewrite slots_at_app. split; [exact A1|].
  replace b with (length (pre ++ flat_map flat_slot slots) + 0)%nat by (rewrite app_length, LS; lia).
  rewrite app_assoc, digests_at_app. exact A2.
Qed.

Lemma serialize_leaf_wf s : valid_leaf s -> wf_leaf (serialize_leaf s) /\ layout_leaf (serialize_leaf s) = s.
Proof.
  intro V. assert (length (serialize_leaf s) = 21%nat /\ layout_leaf (serialize_leaf s) = s) as [L E].
  { destruct s as [a o1 o2 fee nl e1 e2 bh bn]. destruct V as (_ & _ & _ & _ & [Ln _] & [L1 _] & [L2 _] & [Lb _] & _).
    cbn [l_null l_exit1 l_exit2 l_bh] in Ln, L1, L2, Lb.
    destruct (length4_inv _ Ln) as (n0 & n1 & n2 & n3 & ->), (length4_inv _ L1) as (x0 & x1 & x2 & x3 & ->).
    destruct (length4_inv _ L2) as (y0 & y1 & y2 & y3 & ->), (length4_inv _ Lb) as (h0 & h1 & h2 & h3 & ->).
    split; reflexivity. }
  split; [apply (wf_leaf_valid _ L); rewrite E; exact V|exact E].
Qed.

Lemma serialize_priv_wf n s padding :
  valid_priv n s -> length padding = (7 * n)%nat ->
  wf_priv n (serialize_priv s padding) /\ layout_priv n (serialize_priv s padding) = s.
Proof.
  intros V Lp.
  assert (length (serialize_priv s padding) = (8 + 21 * n)%nat /\ layout_priv n (serialize_priv s padding) = s) as [L E].
  { destruct s as [nes asset fee bh bn slots nulls]. destruct V as (_ & _ & _ & _ & [Lh _] & _ & Ls & Fs & Ln & Fn).
    cbn [pb_bh pb_slots pb_nulls] in Lh, Ls, Fs, Ln, Fn. destruct (length4_inv _ Lh) as (h0 & h1 & h2 & h3 & ->).
    destruct (records_region [nes; asset; fee; h0; h1; h2; h3; bn] slots nulls padding 8 (2 * n) (8 + 10 * n) n)
      as (L & A1 & A2); [assumption|assumption|reflexivity|congruence|lia|congruence|].
    split; [apply (eq_trans L); lia|exact (f_equal2 (mkPrivPI nes asset fee [h0; h1; h2; h3] bn) A1 A2)]. }
  split; [apply (wf_priv_valid n _ L); rewrite E; exact V|exact E].
Qed.

Lemma serialize_pub_wf m n s :
  valid_pub m n s -> wf_pub m n (serialize_pub s) /\ layout_pub m n (serialize_pub s) = s.
Proof.
  intro V. assert (length (serialize_pub s) = (12 + 14 * (m * n))%nat /\ layout_pub m n (serialize_pub s) = s) as [L E].
  { destruct s as [addr asset fee bh bn total slots nulls]. destruct V as (_ & _ & [La _] & _ & _ & [Lh _] & _ & _ & Ls & Fs & Ln & Fn).
    cbn [pu_addr pu_bh pu_slots pu_nulls] in La, Lh, Ls, Fs, Ln, Fn.
    destruct (length4_inv _ La) as (a0 & a1 & a2 & a3 & ->), (length4_inv _ Lh) as (h0 & h1 & h2 & h3 & ->).
    destruct (records_region [a0; a1; a2; a3; asset; fee; h0; h1; h2; h3; bn; total] slots nulls []
                             12 (2 * (m * n)) (12 + 10 * (m * n)) (m * n))
      as (L & A1 & A2); [assumption|assumption|reflexivity|congruence|lia|congruence|].
    rewrite app_nil_r in L, A1, A2.
    split; [apply (eq_trans L); cbn [length]; lia|exact (f_equal2 (mkPubPI [a0; a1; a2; a3] asset fee [h0; h1; h2; h3] bn total) A1 A2)]. }
  split; [apply (wf_pub_valid m n _ (proj1 V) (proj1 (proj2 V)) L); rewrite E; exact V|exact E].
Qed.
