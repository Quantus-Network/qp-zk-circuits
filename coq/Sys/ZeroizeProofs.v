From V.Base Require Import Common.
From V.Generated Require Import Constants.
From V.Sys Require Import Zeroize.

Definition bid_eqb (a b : bid) : bool :=
  match a, b with
  | BSrc, BSrc | BNulBytes, BNulBytes | BNulFelts, BNulFelts | BUaBytes, BUaBytes | BUaFelts, BUaFelts
  | BPre, BPre | BPad, BPad | BSalt, BSalt | BSqueeze, BSqueeze | BErr, BErr | BSf, BSf => true
  | _, _ => false
  end.
Lemma bid_eqb_spec a b : bid_eqb a b = true <-> a = b.
Proof. split; [destruct a, b; (reflexivity || discriminate)|intros ->; destruct b; reflexivity]. Qed.

Lemma get_upd h b c b' : get (upd h b c) b' = if bid_eqb b b' then c else get h b'.
Proof. destruct h, b, b'; reflexivity. Qed.
Lemma get_upd_same h b c : get (upd h b c) b = c.
Proof. destruct h, b; reflexivity. Qed.
Lemma get_empty b : get h_empty b = dead_cell.
Proof. destruct b; reflexivity. Qed.

(* statuses only: the sizes / "ever" flags of the executable checker are irrelevant for safety *)
Definition sset (s : bid -> bstatus) (b : bid) (v : bstatus) : bid -> bstatus :=
  fun b' => if bid_eqb b b' then v else s b'.

Inductive safe_from : (bid -> bstatus) -> list ev -> Prop :=
| sf_nil s : safe_from s []
| sf_alloc s b n t : s b = Dead -> safe_from (sset s b Clean) t -> safe_from s (Alloc b n :: t)
| sf_write_secret s b t : s b <> Dead -> safe_from (sset s b Tainted) t -> safe_from s (WriteSecret b :: t)
| sf_write_public s b t : s b <> Dead -> safe_from s t -> safe_from s (WritePublic b :: t)
| sf_zero s b t : s b <> Dead -> safe_from (sset s b Clean) t -> safe_from s (Zero b :: t)
| sf_free s b t : s b = Clean -> safe_from (sset s b Dead) t -> safe_from s (Free b :: t)
| sf_realloc s b n t : s b = Clean -> safe_from s t -> safe_from s (Realloc b n :: t)
| sf_upstream_pad s b t : s b <> Dead -> safe_from (sset s b Dead) t -> safe_from s (FreeUpstreamPad b :: t).

(* one event on statuses: when it is acceptable, and what it leaves *)
Definition ev_ok (s : bid -> bstatus) (e : ev) : Prop :=
  match e with
  | Alloc b _ => s b = Dead
  | WriteSecret b | WritePublic b | Zero b | FreeUpstreamPad b => s b <> Dead
  | Free b | Realloc b _ => s b = Clean
  end.
Definition ev_next (s : bid -> bstatus) (e : ev) : bid -> bstatus :=
  match e with
  | Alloc b _ | Zero b => sset s b Clean
  | WriteSecret b => sset s b Tainted
  | WritePublic b | Realloc b _ => s
  | Free b | FreeUpstreamPad b => sset s b Dead
  end.

Lemma safe_from_cons s e t : safe_from s (e :: t) <-> ev_ok s e /\ safe_from (ev_next s e) t.
Proof.
  split.
  - intro H. inversion H; subst; split; assumption.
  - destruct e; intros [A B]; constructor; assumption.
Qed.

Lemma safe_from_tainted_free s b t : s b = Tainted -> ~ safe_from s (Free b :: t).
Proof. intros T H. inversion H; congruence. Qed.
Lemma safe_from_tainted_realloc s b n t : s b = Tainted -> ~ safe_from s (Realloc b n :: t).
Proof. intros T H. inversion H; congruence. Qed.

Definition ok_of (r : hstate * bool * list (Z * Z)) : bool := snd (fst r).
Definition heap_of (r : hstate * bool * list (Z * Z)) : hstate := fst (fst r).

Lemma run_trace_cons h e t :
  run_trace h (e :: t) =
  (heap_of (run_trace (heap_of (step_ev h e)) t),
   ok_of (step_ev h e) && ok_of (run_trace (heap_of (step_ev h e)) t),
   snd (step_ev h e) ++ snd (run_trace (heap_of (step_ev h e)) t)).
Proof.
  cbn [run_trace]. destruct (step_ev h e) as [[h1 ok1] o1]. cbn [heap_of ok_of fst snd].
  destruct (run_trace h1 t) as [[h2 ok2] o2]. reflexivity.
Qed.

Lemma run_trace_app h a b :
  run_trace h (a ++ b) =
  (heap_of (run_trace (heap_of (run_trace h a)) b),
   ok_of (run_trace h a) && ok_of (run_trace (heap_of (run_trace h a)) b),
   snd (run_trace h a) ++ snd (run_trace (heap_of (run_trace h a)) b)).
Proof.
  revert h; induction a as [|e a IH]; intro h.
  - cbn [app run_trace heap_of ok_of fst snd andb]. destruct (run_trace h b) as [[h2 ok2] o2]. reflexivity.
  - rewrite <- app_comm_cons. rewrite !run_trace_cons. rewrite IH. cbn [heap_of ok_of fst snd].
    rewrite andb_assoc, app_assoc. reflexivity.
Qed.

(* the statuses of the executable heap *)
Definition sim (h : hstate) (s : bid -> bstatus) : Prop := forall b, c_st (get h b) = s b.

Lemma sim_upd h s b c : sim h s -> sim (upd h b c) (sset s b (c_st c)).
Proof. intros R b'. rewrite get_upd. unfold sset. destruct (bid_eqb b b'); [reflexivity|apply R]. Qed.
Lemma sim_upd_same h s b c : sim h s -> c_st c = s b -> sim (upd h b c) s.
Proof.
  intros R E b'. rewrite get_upd. destruct (bid_eqb b b') eqn:Eb; [|apply R].
  apply bid_eqb_spec in Eb. subst b'. exact E.
Qed.

(* one step of the checker is one step on statuses *)
Lemma step_ev_sim h s e : sim h s ->
  (ok_of (step_ev h e) = true <-> ev_ok s e) /\ (ev_ok s e -> sim (heap_of (step_ev h e)) (ev_next s e)).
Proof.
  intro R. destruct e as [b n|b|b|b|b|b n|b]; cbn [step_ev ev_ok ev_next]; pose proof (R b) as Rb; rewrite <- Rb;
    destruct (c_st (get h b)); cbn [heap_of ok_of fst snd]; (split; [split; intro; congruence|]); intro K;
    first [ exact R | apply sim_upd, R | apply sim_upd_same; [exact R|exact Rb] | congruence ].
Qed.

Lemma trace_ok_iff_safe_from : forall t h s, sim h s -> (ok_of (run_trace h t) = true <-> safe_from s t).
Proof.
  induction t as [|e t IH]; intros h s R.
  - split; [constructor|reflexivity].
  - destruct (step_ev_sim h s e R) as [O N]. rewrite run_trace_cons, safe_from_cons. cbn [ok_of fst snd].
    rewrite andb_true_iff, O. split; intros [A B]; (split; [exact A|]); apply (IH _ _ (N A)); exact B.
Qed.

Definition sum_pushes (pushes : list (Z * bool)) : Z := fold_right (fun q a => Z.max 0 (fst q) + a) 0 pushes.

Lemma sum_pushes_cons n s r : sum_pushes ((n, s) :: r) = Z.max 0 n + sum_pushes r.
Proof. reflexivity. Qed.
Lemma sum_pushes_nonneg r : 0 <= sum_pushes r.
Proof. induction r as [|[n s] r IH]; [reflexivity|]. rewrite sum_pushes_cons. lia. Qed.

Definition is_write (b : bid) (e : ev) : Prop := e = WriteSecret b \/ e = WritePublic b.

Lemma is_write_write_ev b s : is_write b (write_ev b s).
Proof. destruct s; [left|right]; reflexivity. Qed.

Lemma vec_extend_skip v n s : n <= 0 -> vec_extend v n s = (v, []).
Proof. intro N. unfold vec_extend. apply Z.leb_le in N. rewrite N. reflexivity. Qed.
Lemma vec_extend_fit v n s : 0 < n -> v_len v + n <= v_cap v ->
  vec_extend v n s = (mkVec (v_blk v) (v_elem v) (v_cap v) (v_len v + n), [write_ev (v_blk v) s]).
Proof.
  intros N F. unfold vec_extend. apply Z.leb_gt in N. apply Z.leb_le in F. rewrite N, F. reflexivity.
Qed.
Lemma vec_extend_grow v n s : 0 < n -> 0 < v_cap v < v_len v + n ->
  vec_extend v n s =
  (mkVec (v_blk v) (v_elem v) (grow_cap (v_elem v) (v_cap v) (v_len v) n) (v_len v + n),
   [Realloc (v_blk v) (v_elem v * grow_cap (v_elem v) (v_cap v) (v_len v) n); write_ev (v_blk v) s]).
Proof.
  intros N [C F]. unfold vec_extend. apply Z.leb_gt in N, F. rewrite N, F.
  destruct (Z.eqb_spec (v_cap v) 0); [lia|reflexivity].
Qed.

Lemma vec_extend_blk v n s : v_blk (fst (vec_extend v n s)) = v_blk v.
Proof. unfold vec_extend. destruct (n <=? 0); [reflexivity|]. destruct (v_len v + n <=? v_cap v); reflexivity. Qed.

Lemma vec_extend_all_cons v n s r :
  vec_extend_all v ((n, s) :: r) =
  (fst (vec_extend_all (fst (vec_extend v n s)) r), snd (vec_extend v n s) ++ snd (vec_extend_all (fst (vec_extend v n s)) r)).
Proof.
  cbn [vec_extend_all]. destruct (vec_extend v n s) as [v1 e1]. cbn [fst snd].
  destruct (vec_extend_all v1 r). reflexivity.
Qed.

(* too little capacity: writes, until some push reallocates *)
Lemma vec_extends_first_realloc : forall pushes v,
  0 < v_cap v -> 0 <= v_len v <= v_cap v -> v_len v + sum_pushes pushes > v_cap v ->
  exists pre n post,
    snd (vec_extend_all v pushes) = pre ++ Realloc (v_blk v) n :: post /\ Forall (is_write (v_blk v)) pre.
Proof.
  induction pushes as [|[n s] r IH]; intros v C L H.
  - cbn in H. lia.
  - rewrite sum_pushes_cons in H. rewrite vec_extend_all_cons.
    destruct (Z.le_gt_cases n 0) as [N|N]; [|destruct (Z.le_gt_cases (v_len v + n) (v_cap v)) as [F|F]].
    + rewrite vec_extend_skip by exact N. apply IH; lia.
    + rewrite vec_extend_fit by lia. cbn [fst snd].
      destruct (IH (mkVec (v_blk v) (v_elem v) (v_cap v) (v_len v + n))) as (pre & k & post & E & W);
        cbn [v_len v_cap]; try lia.
      cbn [v_blk] in E, W. rewrite E. exists (write_ev (v_blk v) s :: pre), k, post.
      split; [reflexivity|constructor; [apply is_write_write_ev|exact W]].
    + rewrite vec_extend_grow by lia. cbn [fst snd app]. exists []. do 2 eexists. split; [reflexivity|constructor].
Qed.

(* writes leave a block that holds the secret as it is *)
Lemma writes_keep_tainted b : forall pre h, Forall (is_write b) pre -> c_st (get h b) = Tainted ->
  c_st (get (heap_of (run_trace h pre)) b) = Tainted.
Proof.
  induction pre as [|e pre IH]; intros h W T; [exact T|].
  inversion W as [|? ? [E|E] W']; subst; rewrite run_trace_cons; cbn [step_ev heap_of fst snd]; rewrite T;
    cbn [heap_of fst snd]; apply (IH _ W'); [rewrite get_upd_same; reflexivity|exact T].
Qed.

(* ... so when the block already holds the secret, that realloc makes the trace unsafe, whatever follows *)
Lemma growth_leaks pushes v h rest :
  c_st (get h (v_blk v)) = Tainted -> 0 < v_cap v -> 0 <= v_len v <= v_cap v -> v_len v + sum_pushes pushes > v_cap v ->
  ok_of (run_trace h (snd (vec_extend_all v pushes) ++ rest)) = false.
Proof.
  intros T C L H. destruct (vec_extends_first_realloc pushes v C L H) as (pre & n & post & E & W). rewrite E.
  pose proof (writes_keep_tainted _ pre h W T) as T'.
  rewrite <- app_assoc, run_trace_app, <- app_comm_cons, run_trace_cons. cbn [ok_of fst snd step_ev]. rewrite T'.
  apply andb_false_r.
Qed.

(* a Vec that received the secret within its capacity and is then pushed beyond it *)
Lemma growth_would_leak b elem cap n1 pushes rest :
  0 < n1 <= cap -> n1 + sum_pushes pushes > cap ->
  trace_safe (snd (vec_with_capacity b elem cap)
              ++ snd (vec_extend_all (fst (vec_with_capacity b elem cap)) ((n1, true) :: pushes)) ++ rest) = false.
Proof.
  intros H1 H2. unfold trace_safe, vec_with_capacity. cbn [fst snd].
  destruct (Z.ltb_spec 0 cap) as [C|C]; [|lia].
  rewrite vec_extend_all_cons, vec_extend_fit by (cbn [v_len v_cap]; lia). cbn [fst snd v_blk v_elem v_cap v_len write_ev app].
  rewrite !run_trace_cons. cbn [ok_of fst snd step_ev heap_of]. rewrite get_empty. cbn [c_st dead_cell heap_of fst snd].
  rewrite get_upd_same. cbn [c_st heap_of fst snd ok_of andb].
  apply growth_leaks; cbn [v_blk v_cap v_len]; try lia. rewrite get_upd_same. reflexivity.
Qed.

Definition vec_bytes (v : vec) : Z := v_elem v * v_cap v.
Definition live_cell (b : bool) (size : Z) : cell := if b then mkCell Tainted size true else dead_cell.

(* the heap between two calls, as a function of what the caller holds: exactly the held serialisation buffers
   are live (and hold the secret); every temporary is gone *)
Definition hstate_of (m : mstate) : hstate :=
  mkH dead_cell
      (live_cell (m_nb m) (vec_bytes (fst nullifier_to_bytes)))
      (live_cell (m_nf m) (vec_bytes (fst nullifier_to_felts)))
      (live_cell (m_ub m) (vec_bytes (fst unspendable_to_bytes)))
      (live_cell (m_uf m) (vec_bytes (fst unspendable_to_felts)))
      dead_cell dead_cell dead_cell dead_cell dead_cell
      (live_cell (m_sf m) (vec_bytes (fst caller_spare_felts))).

Definition hashes_secret (o : op) : bool := match o with NulFromPreimage | UaFromSecret => true | _ => false end.
Definition is_pad (sk : Z * Z) : bool := snd sk =? K_UPSTREAM_PAD.
Definition count_pad (o : list (Z * Z)) : nat := length (filter is_pad o).
Definition pad_sizes : list Z :=
  [FELT_BYTES * pad_len (zlen NULLIFIER_SALT_FELTS + POSEIDON2_OUTPUT + FELTS_PER_U64);
   FELT_BYTES * pad_len (zlen UNSPENDABLE_SALT_FELTS + POSEIDON2_OUTPUT)].
Definition obs_entry_ok (sk : Z * Z) : bool :=
  (snd sk =? K_SCRUBBED) || ((snd sk =? K_UPSTREAM_PAD) && existsb (Z.eqb (fst sk)) pad_sizes).

Lemma obs_entry_ok_spec sk :
  obs_entry_ok sk = true <-> snd sk = K_SCRUBBED \/ (snd sk = K_UPSTREAM_PAD /\ In (fst sk) pad_sizes).
Proof.
  unfold obs_entry_ok. rewrite orb_true_iff, andb_true_iff, !Z.eqb_eq, existsb_exists.
  split; (intros [H|[H1 H2]]; [left; exact H|right; split; [exact H1|]]).
  - destruct H2 as [x [Hin Hx]]. apply Z.eqb_eq in Hx. subst. exact Hin.
  - exists (fst sk). split; [exact H2|apply Z.eqb_refl].
Qed.
Lemma obs_entries_ok o : forallb obs_entry_ok o = true ->
  Forall (fun sk => snd sk = K_SCRUBBED \/ (snd sk = K_UPSTREAM_PAD /\ In (fst sk) pad_sizes)) o.
Proof. rewrite forallb_Forall. apply Forall_impl. intro sk. apply obs_entry_ok_spec. Qed.

(* from heap [h] the trace [t] is accepted, leaves heap [h'], and what it releases is scrubbed except for [n]
   upstream pad buffers *)
Definition good_run (h : hstate) (t : list ev) (h' : hstate) (n : nat) : Prop :=
  heap_of (run_trace h t) = h' /\ ok_of (run_trace h t) = true /\
  forallb obs_entry_ok (snd (run_trace h t)) = true /\ count_pad (snd (run_trace h t)) = n.

Lemma good_run_app h a h1 n1 b h2 n2 :
  good_run h a h1 n1 -> good_run h1 b h2 n2 -> good_run h (a ++ b) h2 (n1 + n2).
Proof.
  intros (A1 & A2 & A3 & A4) (B1 & B2 & B3 & B4). subst h1. unfold good_run, count_pad in *. rewrite run_trace_app.
  unfold heap_of at 1, ok_of at 1. cbn [fst snd].
  rewrite A2, B2, forallb_app, A3, B3, filter_app, app_length, A4, B4.
  repeat split; assumption.
Qed.

(* split on a flag of the caller state that the goal branches on *)
Ltac case_flag := match goal with |- context [if ?f then _ else _] => is_var f; destruct f end.

(* Each of the 37 calls (and the no-op), from every caller state, by evaluation.  Only the flags that the call reads
   are made concrete; the others stay variables, so the cells of the buffers that the call does not touch pass
   through the evaluation unread. *)
Lemma step_inv m o :
  good_run (hstate_of m) (snd (op_step m o)) (hstate_of (fst (op_step m o))) (if hashes_secret o then 1 else 0).
Proof.
  destruct m as [sec nul ua nb nf ub uf sf], o; cbn [op_step m_nul m_ua m_nb m_nf m_ub m_uf m_sf]; unfold when;
    repeat case_flag; vm_compute; repeat split.
Qed.

Lemma final_inv m : good_run (hstate_of m) (final_events m) h_empty 0.
Proof.
  destruct m as [sec nul ua nb nf ub uf sf]; unfold final_events, when; cbn [m_nb m_nf m_ub m_uf m_sf];
    repeat case_flag; vm_compute; repeat split.
Qed.

Fixpoint count_hash_ops (ops : list op) : nat :=
  match ops with [] => 0%nat | o :: r => ((if hashes_secret o then 1 else 0) + count_hash_ops r)%nat end.

Lemma seq_inv : forall ops m, good_run (hstate_of m) (seq_events m ops) h_empty (count_hash_ops ops).
Proof.
  induction ops as [|o r IH]; intro m; cbn [seq_events count_hash_ops]; [apply final_inv|].
  pose proof (step_inv m o) as S. destruct (op_step m o) as [m1 e]. exact (good_run_app _ _ _ _ _ _ _ S (IH m1)).
Qed.

Lemma run_seq_good codes : good_run h_empty (run_seq codes) h_empty (count_hash_ops (map op_of_Z codes)).
Proof. exact (seq_inv (map op_of_Z codes) m_init). Qed.

Lemma secret_new_zeroes bytes : snd (secret_new bytes) = repeat 0 (length bytes).
Proof. cbn [secret_new snd]. induction bytes as [|x l IH]; cbn [map length repeat]; [reflexivity|rewrite IH; reflexivity]. Qed.
Lemma secret_new_ok bytes :
  is_ok (fst (secret_new bytes)) = forallb (fun c => le_limb c <? INPUTS_GOLDILOCKS_ORDER) (chunks 8 bytes).
Proof. cbn [secret_new fst]. unfold bytes_digest_try_from. destruct (forallb _ _); reflexivity. Qed.
Lemma secret_new_wraps bytes s : fst (secret_new bytes) = Ok s -> s = bytes.
Proof. cbn [secret_new fst]. unfold bytes_digest_try_from. destruct (forallb _ _); intro H; inversion H; reflexivity. Qed.

Definition sub8 (l : list Z) (i : nat) : list Z := firstn 8 (skipn i l).

Lemma chunks8_32 (l : list Z) : length l = 32%nat -> chunks 8 l = [sub8 l 0; sub8 l 8; sub8 l 16; sub8 l 24].
Proof.
  intro L. change (chunks 8 l) with (chunks 8 (skipn 0 l)). unfold sub8.
  do 4 rewrite chunks_step by lia. cbn [Nat.add].
  rewrite (skipn_all2 (n := 32) l) by lia. reflexivity.
Qed.

Lemma le_limb_range (bs : list Z) : Forall (fun b => 0 <= b < 256) bs -> 0 <= le_limb bs < 256 ^ Z.of_nat (length bs).
Proof.
  induction 1 as [|b bs Hb _ IH]; [cbn; lia|].
  cbn [le_limb fold_right length]. fold (le_limb bs). rewrite Nat2Z.inj_succ, Z.pow_succ_r by lia. lia.
Qed.
