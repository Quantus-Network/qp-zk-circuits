(* Sys/Shuffle.v (C15).  Fisher-Yates on pairwise distinct slots is a bijection between valid draw
   vectors and orders; the draws that rejection sampling takes from a u32 stream are valid; the commits
   accept between 1 and n proofs, pad, and (private) permute; preimage sampling returns the images of
   the first accepted candidates, in order; the executable predicates on observations are sound. *)
From Coq Require Import Permutation.
From V.Base Require Import Common.
From V.Generated Require Import Constants.
From V.Sys Require Import Encoding EncodingProofs Shuffle.

Section Lists.
Context {A : Type}.
Implicit Types l pre suf : list A.

Lemma upd_nil i (x : A) : upd [] i x = [].
Proof. unfold upd. destruct i; reflexivity. Qed.

Lemma upd_cons_S (a : A) l i x : upd (a :: l) (S i) x = a :: upd l i x.
Proof.
  unfold upd. cbn [length]. change (Nat.ltb (S i) (S (length l))) with (Nat.ltb i (length l)).
  destruct (Nat.ltb i (length l)); reflexivity.
Qed.

Lemma upd_length l i (x : A) : length (upd l i x) = length l.
Proof.
  revert i; induction l as [|a l IH]; intro i; [now rewrite upd_nil|].
  destruct i; [reflexivity|]. rewrite upd_cons_S. cbn [length]. now rewrite IH.
Qed.

Lemma upd_at l1 (a : A) l2 x : upd (l1 ++ a :: l2) (length l1) x = l1 ++ x :: l2.
Proof.
  induction l1 as [|b l1 IH]; [reflexivity|].
  cbn [app length]. rewrite upd_cons_S, IH. reflexivity.
Qed.

Lemma upd_app_l l suf i (x : A) : (i < length l)%nat -> upd (l ++ suf) i x = upd l i x ++ suf.
Proof.
  revert i; induction l as [|a l IH]; intros i H; [cbn in H; lia|].
  destruct i; [reflexivity|]. cbn [app]. rewrite !upd_cons_S, IH by (cbn in H; lia). reflexivity.
Qed.

Lemma nth_upd l i (x : A) k d : (i < length l)%nat ->
  nth k (upd l i x) d = if Nat.eqb k i then x else nth k l d.
Proof.
  revert i k; induction l as [|a l IH]; intros i k H; [cbn in H; lia|].
  destruct i.
  - destruct k; reflexivity.
  - rewrite upd_cons_S. destruct k; [reflexivity|]. cbn [nth]. rewrite IH by (cbn in H; lia). reflexivity.
Qed.

Lemma swap_nth l i j k d : (i < length l)%nat -> (j < length l)%nat ->
  nth k (swap l i j) d = if Nat.eqb k j then nth i l d else if Nat.eqb k i then nth j l d else nth k l d.
Proof.
  intros Hi Hj. unfold swap. rewrite (nth_error_nth' l d Hi), (nth_error_nth' l d Hj).
  rewrite nth_upd by (rewrite upd_length; exact Hj). destruct (Nat.eqb k j); [reflexivity|].
  apply nth_upd, Hi.
Qed.

Lemma swap_same l i : swap l i i = l.
Proof.
  unfold swap. destruct (nth_error l i) as [a|] eqn:E; [|reflexivity].
  destruct (nth_error_split l i E) as [l1 [l2 [-> L]]]. subst i. rewrite !upd_at. reflexivity.
Qed.

(* the swap of a Fisher-Yates step, which exchanges the last position of [pre ++ [x]] with position d: the drawn
   element moves to the end and x takes its place (for d = length pre nothing moves, and [upd] out of range
   leaves [pre] as it is) *)
Lemma swap_last pre x suf d : (d <= length pre)%nat ->
  swap (pre ++ x :: suf) (length pre) d = upd pre d x ++ nth d (pre ++ [x]) x :: suf.
Proof.
  intro Hd. apply Nat.lt_eq_cases in Hd. destruct Hd as [Hd| ->].
  - unfold swap. rewrite nth_error_app2, Nat.sub_diag, nth_error_app1 by lia. cbn [nth_error].
    rewrite (nth_error_nth' pre x Hd), app_nth1, upd_at by exact Hd. apply upd_app_l, Hd.
  - rewrite swap_same, app_nth2, Nat.sub_diag by lia. unfold upd. rewrite Nat.ltb_irrefl. reflexivity.
Qed.

Lemma nth_error_upd_val l i j (b : A) : nth_error l j = Some b -> nth_error (upd l i b) j = Some b.
Proof.
  revert i j; induction l as [|c l IH]; intros [|i] [|j] H; try discriminate; rewrite ?upd_cons_S; try exact H.
  - reflexivity.
  - apply IH, H.
Qed.

Lemma upd_perm l i (a x : A) : nth_error l i = Some a -> Permutation (a :: upd l i x) (x :: l).
Proof.
  intro E. destruct (nth_error_split l i E) as (l1 & l2 & -> & <-). rewrite upd_at.
  rewrite <- !Permutation_middle. apply perm_swap.
Qed.

(* [swap l i j] is l with l[j] written at i and then l[i] at j: each write frees what the other puts back *)
Lemma swap_perm l i j : Permutation (swap l i j) l.
Proof.
  unfold swap. destruct (nth_error l i) as [a|] eqn:Ea; [|reflexivity].
  destruct (nth_error l j) as [b|] eqn:Eb; [|reflexivity].
  apply Permutation_cons_inv with (a := b).
  transitivity (a :: upd l i b); apply upd_perm; [apply nth_error_upd_val|]; assumption.
Qed.

Lemma swap_length l i j : length (swap l i j) = length l.
Proof. apply Permutation_length, swap_perm. Qed.

Lemma fy_go_perm i : forall draws l, Permutation (fy_go i draws l) l.
Proof.
  induction i as [|i IH]; intros draws l; [reflexivity|].
  cbn [fy_go]. destruct draws as [|d ds]; [reflexivity|].
  etransitivity; [apply IH|apply swap_perm].
Qed.

Lemma fy_go_length i draws l : length (fy_go i draws l) = length l.
Proof. apply Permutation_length, fy_go_perm. Qed.

Lemma snoc_of_length l n : length l = S n -> exists pre x, l = pre ++ [x] /\ length pre = n.
Proof.
  intro L. destruct (exists_last (l := l)) as (pre & x & ->); [intros ->; discriminate|].
  exists pre, x. split; [reflexivity|]. rewrite app_length in L. cbn [length] in L. lia.
Qed.

(* positions above the current step are locked *)
Lemma fy_go_app i : forall draws pre suf, length pre = S i -> valid_draws i draws ->
  fy_go i draws (pre ++ suf) = fy_go i draws pre ++ suf.
Proof.
  induction i as [|i IH]; intros draws pre suf L V; [reflexivity|].
  destruct draws as [|d ds]; [reflexivity|]. destruct V as [Hd V].
  destruct (snoc_of_length pre (S i) L) as (pre' & x & -> & L').
  cbn [fy_go]. rewrite <- app_assoc. cbn [app]. rewrite <- L', !swap_last by lia.
  rewrite !IH by (rewrite ?upd_length; assumption). rewrite <- app_assoc. reflexivity.
Qed.

(* one step on a slice of length i+2: the drawn element goes to the last position, and the remaining steps run
   on the slice of length i+1 before it *)
Lemma fy_go_step i d ds pre x : length pre = S i -> (d <= S i)%nat -> valid_draws i ds ->
  fy_go (S i) (d :: ds) (pre ++ [x]) = fy_go i ds (upd pre d x) ++ [nth d (pre ++ [x]) x].
Proof.
  intros L Hd V. cbn [fy_go]. rewrite <- L, swap_last by lia.
  apply fy_go_app; [rewrite upd_length; exact L|exact V].
Qed.

Lemma valid_draws_length i : forall ds, valid_draws i ds -> length ds = i.
Proof.
  induction i as [|i IH]; intros [|d ds] V; cbn [valid_draws] in V; try contradiction; [reflexivity|].
  cbn [length]. f_equal. apply IH. tauto.
Qed.

Lemma valid_drawsb_spec i : forall ds, valid_drawsb i ds = true <-> valid_draws i ds.
Proof.
  induction i as [|i IH]; intros [|d ds]; cbn [valid_drawsb valid_draws]; try (split; [discriminate|contradiction]).
  - tauto.
  - rewrite andb_true_iff, Nat.leb_le, IH. tauto.
Qed.

Lemma fisher_yates_perm l draws : Permutation (fisher_yates l draws) l.
Proof. apply fy_go_perm. Qed.

(* Draw vectors and orders of pairwise distinct slots, one to one; i = length l - 1 as in [fisher_yates], so
   that the empty slice is covered.  The first draw has to be the position in l of the last element of t,
   and the remaining draws are those that take the rest of the slice to the rest of t. *)
Lemma fy_go_bijection i : forall l t, (length l - 1)%nat = i -> NoDup l -> Permutation l t ->
  exists! ds, valid_draws i ds /\ fy_go i ds l = t.
Proof.
  induction i as [|i IH]; intros l t L ND P.
  - exists []. split.
    + split; [exact I|]. symmetry.
      destruct l as [|a [|b l]]; [apply Permutation_nil, P|apply Permutation_length_1_inv, P|discriminate].
    + intros [|d ds] [V _]; [reflexivity|contradiction].
  - destruct (snoc_of_length l (S i)) as (pre & x & -> & Lp); [lia|].
    destruct (snoc_of_length t (S i)) as (t' & y & -> & _); [rewrite <- (Permutation_length P); lia|].
    assert (Iy : In y (pre ++ [x])) by (apply (Permutation_in y (Permutation_sym P)), in_elt).
    destruct (In_nth _ _ x Iy) as (d & Hd & Nd). rewrite last_length in Hd.
    assert (Q : Permutation (upd pre d x ++ [y]) (pre ++ [x])).
    { rewrite <- Nd, <- swap_last by lia. apply swap_perm. }
    destruct (IH (upd pre d x) t') as (ds & [V G] & U).
    { rewrite upd_length. lia. }
    { apply (Permutation_NoDup (Permutation_sym Q)), NoDup_remove_1 in ND. rewrite app_nil_r in ND. exact ND. }
    { apply Permutation_app_inv_r with (l := [y]). rewrite Q. exact P. }
    exists (d :: ds). split.
    + split; [split; [lia|exact V]|]. rewrite fy_go_step, Nd, G by (assumption || lia). reflexivity.
    + intros [|d' ds'] [V' G']; [contradiction|]. destruct V' as [Hd' V'].
      rewrite fy_go_step in G' by (assumption || lia). apply app_inj_tail in G'. destruct G' as [G' N'].
      assert (d = d') as <-.
      { apply (proj1 (NoDup_nth _ x) ND); rewrite ?last_length; [lia..|]. congruence. }
      f_equal. apply U. split; assumption.
Qed.

Lemma pad_length (proofs : list A) template n : (length proofs <= n)%nat -> length (pad proofs template n) = n.
Proof. intro H. unfold pad. rewrite app_length, repeat_length. lia. Qed.

Lemma count_ok_spec (proofs : list A) n : count_ok proofs n = true <-> (1 <= length proofs <= n)%nat.
Proof.
  unfold count_ok. rewrite andb_true_iff, negb_true_iff, Nat.eqb_neq, Nat.leb_le. lia.
Qed.

Lemma count_ok_false (proofs : list A) n : (length proofs = 0 \/ n < length proofs)%nat -> count_ok proofs n = false.
Proof. intro H. apply not_true_is_false. rewrite count_ok_spec. lia. Qed.

Lemma commit_private_spec (proofs : list A) template n draws slots :
  commit_private proofs template n draws = Ok slots ->
  (1 <= length proofs <= n)%nat /\ length slots = n /\
  Permutation slots (proofs ++ repeat template (n - length proofs)).
Proof.
  unfold commit_private. destruct (count_ok proofs n) eqn:C; [|discriminate].
  apply count_ok_spec in C. intro H. injection H as <-. split; [exact C|].
  destruct (Nat.ltb 1 (length (pad proofs template n))).
  - split; [|apply fisher_yates_perm]. unfold fisher_yates. rewrite fy_go_length. apply pad_length. lia.
  - split; [apply pad_length; lia|reflexivity].
Qed.

Lemma commit_private_rejects (proofs : list A) template n draws :
  (length proofs = 0 \/ n < length proofs)%nat -> commit_private proofs template n draws = Err 1.
Proof.
  intro H. unfold commit_private. rewrite count_ok_false by exact H. reflexivity.
Qed.

Lemma commit_private_accepts (proofs : list A) template n draws :
  (1 <= length proofs <= n)%nat -> exists slots, commit_private proofs template n draws = Ok slots.
Proof. intro H. apply count_ok_spec in H. unfold commit_private. rewrite H. eexists. reflexivity. Qed.

Lemma commit_public_accepts (proofs : list A) template n :
  (1 <= length proofs <= n)%nat -> commit_public proofs template n = Ok (pad proofs template n).
Proof. intro H. apply count_ok_spec in H. unfold commit_public. rewrite H. reflexivity. Qed.

Lemma commit_public_rejects (proofs : list A) template n :
  (length proofs = 0 \/ n < length proofs)%nat -> commit_public proofs template n = Err 1.
Proof. intro H. unfold commit_public. rewrite count_ok_false by exact H. reflexivity. Qed.

Lemma commit_public_spec (proofs : list A) template n slots :
  commit_public proofs template n = Ok slots ->
  (1 <= length proofs <= n)%nat /\ length slots = n /\
  firstn (length proofs) slots = proofs /\ skipn (length proofs) slots = repeat template (n - length proofs).
Proof.
  unfold commit_public. destruct (count_ok proofs n) eqn:C; [|discriminate].
  apply count_ok_spec in C. intro H. injection H as <-. split; [exact C|].
  split; [apply pad_length; lia|]. split; [apply firstn_exact|apply skipn_exact]; reflexivity.
Qed.

End Lists.

(* every valid draw vector for a slice of length i+1, once *)
Fixpoint all_draws (i : nat) : list (list nat) :=
  match i with
  | O => [[]]
  | S i' => flat_map (fun d => map (cons d) (all_draws i')) (seq 0 (S i))
  end.

Lemma all_draws_spec i : forall ds, In ds (all_draws i) <-> valid_draws i ds.
Proof.
  induction i as [|i IH]; intro ds.
  - destruct ds; cbn; [tauto|]. split; [intros [H|[]]; discriminate|intros []].
  - cbn [all_draws]. rewrite in_flat_map. split.
    + intros [d [Hd H]]. apply in_map_iff in H. destruct H as [t [<- Ht]].
      apply in_seq in Hd. cbn [valid_draws]. split; [lia|apply IH; exact Ht].
    + destruct ds as [|d t]; [contradiction|]. cbn [valid_draws]. intros [Hd V].
      exists d. split; [apply in_seq; lia|]. apply in_map. apply IH. exact V.
Qed.

Lemma flat_map_const_length {X Y} (f : X -> list Y) c l :
  (forall x, length (f x) = c) -> length (flat_map f l) = (length l * c)%nat.
Proof.
  intro H. induction l as [|x l IH]; [reflexivity|]. cbn [flat_map length]. rewrite app_length, H, IH. lia.
Qed.

Lemma all_draws_length i : length (all_draws i) = fact (S i).
Proof.
  induction i as [|i IH]; [reflexivity|].
  cbn [all_draws]. rewrite flat_map_const_length with (c := fact (S i)).
  - rewrite seq_length. change (fact (S (S i))) with (S (S i) * fact (S i))%nat. reflexivity.
  - intro d. rewrite map_length. exact IH.
Qed.

Lemma NoDup_app_intro {X} (a b : list X) : NoDup a -> NoDup b -> (forall x, In x a -> ~ In x b) -> NoDup (a ++ b).
Proof.
  intros Na Nb D. induction a as [|x a IH]; [exact Nb|].
  cbn [app]. inversion_clear Na as [|? ? Hx Ha]. constructor.
  - intro H. apply in_app_or in H. destruct H as [H|H]; [contradiction|]. apply (D x); [left; reflexivity|exact H].
  - apply IH; [exact Ha|]. intros y Hy. apply D. right. exact Hy.
Qed.

Lemma all_draws_nodup i : NoDup (all_draws i).
Proof.
  induction i as [|i IH]; [repeat constructor; intros []|].
  cbn [all_draws]. generalize (seq_NoDup (S (S i)) 0). generalize (seq 0 (S (S i))) as l.
  induction l as [|d l IHl]; intro ND; [constructor|].
  inversion_clear ND as [|? ? Hd Hl]. cbn [flat_map]. apply NoDup_app_intro.
  - apply FinFun.Injective_map_NoDup; [|exact IH]. intros x y E. injection E. auto.
  - apply IHl. exact Hl.
  - intros ds H1 H2. apply in_map_iff in H1. destruct H1 as [t [<- _]].
    apply in_flat_map in H2. destruct H2 as [d' [Hd' H2]]. apply in_map_iff in H2. destruct H2 as [t' [E _]].
    injection E as E _. subst d'. contradiction.
Qed.

Definition u32s (l : list Z) : Prop := Forall (fun v => 0 <= v < two32) l.

Lemma lz32_facts range : 0 < range < two32 ->
  let K := 2 ^ lz32 range in
  0 < K /\ 2147483648 <= range * K < two32 /\ zone32 range = range * K - 1.
Proof.
  intros R K.
  pose proof (Z.log2_spec range ltac:(lia)) as [L1 L2].
  pose proof (Z.log2_nonneg range) as L0.
  assert (L3 : Z.log2 range < 32) by (apply Z.log2_lt_pow2; [lia|exact (proj2 R)]).
  assert (K0 : 0 < K) by (apply Z.pow_pos_nonneg; unfold lz32; lia).
  assert (EK : 2 ^ Z.log2 range * K = 2147483648).
  { unfold K, lz32. rewrite <- Z.pow_add_r by lia. replace (Z.log2 range + (31 - Z.log2 range)) with 31 by lia. reflexivity. }
  assert (B : 2147483648 <= range * K < two32).
  { change two32 with (2 * 2147483648). rewrite <- EK, Z.mul_assoc, <- Z.pow_succ_r by exact L0.
    split; [apply Z.mul_le_mono_nonneg_r|apply Z.mul_lt_mono_pos_r]; lia. }
  split; [exact K0|]. split; [exact B|].
  unfold zone32. fold K. rewrite (Z.mod_small (range * K)) by lia. apply Z.mod_small. lia.
Qed.

Lemma accept32_iff range v : 0 < range < two32 ->
  accept32 range v = true <-> wmul_lo v range < range * 2 ^ lz32 range.
Proof.
  intro R. destruct (lz32_facts range R) as (_ & _ & Zn). unfold accept32. rewrite Zn, Z.leb_le. lia.
Qed.

Lemma div_mod_window a T h w : 0 < w <= T -> a mod T < w /\ a / T = h <-> h * T <= a < h * T + w.
Proof.
  intro W. split.
  - intros [M <-]. lia.
  - intro B. assert (h = a / T) as -> by (apply (Z.div_unique_pos a T h (a - h * T)); lia). lia.
Qed.

Lemma ceil_div_le a r v : 0 < r -> (a + r - 1) / r <= v <-> a <= v * r.
Proof.
  intro R. split; intro H.
  - apply Z.nlt_ge. intro L. assert (v + 1 <= (a + r - 1) / r) by (apply Z.div_le_lower_bound; lia). lia.
  - apply Z.lt_succ_r. apply Z.div_lt_upper_bound; lia.
Qed.

(* the v whose product with r has high word h and low word below r * K, for words of size T: K consecutive values,
   starting at the ceiling of h * T / r *)
Lemma mul_window T r K h : 0 < r -> 0 <= h < r -> 0 < K -> r * K <= T ->
  let c := (h * T + r - 1) / r in
  0 <= c /\ c + K <= T /\ forall v, (v * r) mod T < r * K /\ v * r / T = h <-> c <= v < c + K.
Proof.
  intros R H K0 B c. pose proof (Z.mul_pos_pos r K R K0) as RK.
  assert (C : forall v, c <= v <-> h * T <= v * r) by (intro v; apply ceil_div_le, R).
  assert (T0 : 0 <= h * T) by (apply Z.mul_nonneg_nonneg; lia).
  split; [apply Z.div_pos; lia|]. clearbody c. split.
  - apply Z.le_add_le_sub_r, C. assert (h * T <= (r - 1) * T) by (apply Z.mul_le_mono_nonneg_r; lia). lia.
  - intro v. rewrite div_mod_window by lia. rewrite (C v). pose proof (C (v - K)) as C'. lia.
Qed.

Lemma wmul_hi_range range v : 0 < range -> 0 <= v < two32 -> 0 <= wmul_hi v range < range.
Proof.
  intros R V. unfold wmul_hi. split.
  - apply Z.div_pos; [apply Z.mul_nonneg_nonneg|]; lia.
  - apply Z.div_lt_upper_bound; [reflexivity|]. apply Z.mul_lt_mono_pos_r; lia.
Qed.

Lemma gen_index_spec range : forall stream d rest, gen_index range stream = Some (d, rest) ->
  exists rej v, stream = rej ++ v :: rest /\ Forall (fun w => accept32 range w = false) rej /\
                accept32 range v = true /\ d = wmul_hi v range.
Proof.
  induction stream as [|v s IH]; intros d rest H; [discriminate|].
  cbn [gen_index] in H. destruct (accept32 range v) eqn:A.
  - injection H as <- <-. exists [], v. repeat split; [constructor|exact A].
  - destruct (IH d rest H) as [rej [w [-> [F [Aw ->]]]]].
    exists (v :: rej), w. repeat split; [constructor; assumption|exact Aw].
Qed.

Lemma gen_index_in_range range stream d rest : 0 < range -> u32s stream ->
  gen_index range stream = Some (d, rest) -> 0 <= d < range /\ u32s rest.
Proof.
  intros R U H. destruct (gen_index_spec range stream d rest H) as [rej [v [-> [_ [_ ->]]]]].
  unfold u32s in U. apply Forall_app in U. destruct U as [_ U]. inversion_clear U as [|? ? Hv Hr].
  split; [apply wmul_hi_range; assumption|exact Hr].
Qed.

Lemma draws_from_stream_valid i : forall stream ds rest, u32s stream ->
  draws_from_stream i stream = Some (ds, rest) -> valid_draws i ds /\ u32s rest.
Proof.
  induction i as [|i IH]; intros stream ds rest U H.
  - cbn in H. injection H as <- <-. split; [exact I|exact U].
  - cbn [draws_from_stream] in H.
    destruct (gen_index (Z.of_nat (S i) + 1) stream) as [[d r]|] eqn:G; [|discriminate].
    destruct (draws_from_stream i r) as [[t r']|] eqn:D; [|discriminate].
    injection H as <- <-.
    destruct (gen_index_in_range (Z.of_nat (S i) + 1) stream d r ltac:(lia) U G) as [Hd Ur].
    destruct (IH r t r' Ur D) as [V Ur'].
    split; [|exact Ur']. cbn [valid_draws]. split; [lia|exact V].
Qed.

Lemma shuffle_stream_spec {A} (l : list A) stream out ds rest : u32s stream ->
  shuffle_stream l stream = Some (out, ds, rest) ->
  valid_draws (length l - 1) ds /\ out = fisher_yates l ds /\ Permutation out l.
Proof.
  intros U H. unfold shuffle_stream in H.
  destruct (draws_from_stream (length l - 1) stream) as [[t r]|] eqn:D; [|discriminate].
  injection H as <- <- <-.
  destruct (draws_from_stream_valid (length l - 1) stream t r U D) as [V _].
  split; [exact V|]. split; [reflexivity|apply fisher_yates_perm].
Qed.

Definition accepted (c : list Z) : Prop := bytes_digest_try_from c = Ok c.
Definition acceptedb (c : list Z) : bool := is_ok (bytes_digest_try_from c).
Definition canonical (d : list Z) : Prop := length d = 4%nat /\ Forall (fun v => 0 <= v < p) d.

Lemma acceptedb_spec c : acceptedb c = true <-> accepted c.
Proof.
  unfold acceptedb, accepted. destruct (bytes_digest_try_from c) as [d|e] eqn:E; cbn [is_ok].
  - apply digest_try_from_id in E as ->. tauto.
  - split; discriminate.
Qed.

Lemma accepted_iff c : accepted c <-> zlen c = 32 /\ Forall (fun v => v < p) (limbs8 c).
Proof. unfold accepted. rewrite digest_try_from_ok. tauto. Qed.

Lemma accepted_canonical c : Forall byte c -> accepted c -> canonical (bytes_to_digest c).
Proof.
  intros B A. apply accepted_iff in A. destruct A as [L F]. pose proof (aligned8_32 c L) as Al. split.
  - pose proof (limbs8_len c Al) as E. unfold bytes_to_digest, zlen in *. lia.
  - pose proof (limbs8_u64 c Al B) as U.
    rewrite Forall_forall in *. intros v Hv. specialize (U v Hv). specialize (F v Hv). unfold u64 in U. lia.
Qed.

(* canonical digests <-> accepted byte strings, one to one *)
Lemma canonical_has_unique_candidate d : canonical d ->
  exists! c, Forall byte c /\ accepted c /\ bytes_to_digest c = d.
Proof.
  intros [L F].
  assert (U : Forall u64 d) by (revert F; apply Forall_impl; unfold u64, p, two64; lia).
  pose proof (limbs8_flat d U) as E.
  exists (flat_map (to_le 8) d). split; [split; [|split; [|exact E]]|].
  - apply Forall_flat_map, Forall_forall. intros v _. apply to_le_bytes.
  - apply accepted_iff. rewrite E, zlen_flat_to_le8. unfold zlen. rewrite L.
    split; [reflexivity|]. revert F. apply Forall_impl. lia.
  - intros c (B & A & <-). apply accepted_iff in A. apply flat_limbs8; [apply aligned8_32, A|exact B].
Qed.

Lemma sample_preimage_cons c rest :
  sample_preimage (c :: rest) = if acceptedb c then Some (bytes_to_digest c, rest) else sample_preimage rest.
Proof.
  cbn [sample_preimage]. unfold acceptedb. destruct (bytes_digest_try_from c) as [d|e] eqn:E; [|reflexivity].
  apply digest_try_from_id in E as ->. reflexivity.
Qed.

Lemma sample_preimage_spec cands d rest : sample_preimage cands = Some (d, rest) ->
  exists rej c, cands = rej ++ c :: rest /\ Forall (fun r => ~ accepted r) rej /\ accepted c /\ d = bytes_to_digest c.
Proof.
  revert d rest; induction cands as [|c s IH]; intros d rest H; [discriminate|].
  rewrite sample_preimage_cons in H. destruct (acceptedb c) eqn:A.
  - injection H as <- <-. apply acceptedb_spec in A. exists [], c. repeat split; [constructor|exact A].
  - destruct (IH d rest H) as (rej & c' & -> & F & A' & ->).
    exists (c :: rej), c'. repeat split; [|exact A']. constructor; [|exact F]. rewrite <- acceptedb_spec. congruence.
Qed.

Lemma sample_preimage_filter cands :
  match sample_preimage cands with
  | Some (d, rest) => exists c, filter acceptedb cands = c :: filter acceptedb rest /\ d = bytes_to_digest c
  | None => filter acceptedb cands = []
  end.
Proof.
  induction cands as [|c s IH]; [reflexivity|].
  cbn [filter]. rewrite sample_preimage_cons. destruct (acceptedb c); [|exact IH]. exists c. split; reflexivity.
Qed.

(* the n slot values are the images of the first n accepted candidates, in order: slot j depends on one
   candidate of the stream, and different slots on different candidates *)
Lemma sample_preimages_eq n : forall cands, sample_preimages n cands =
  let acc := filter acceptedb cands in
  if Nat.leb n (length acc) then Some (map bytes_to_digest (firstn n acc)) else None.
Proof.
  induction n as [|n IH]; intro cands; [reflexivity|].
  cbn [sample_preimages]. pose proof (sample_preimage_filter cands) as F.
  destruct (sample_preimage cands) as [[d rest]|].
  - destruct F as [c [-> ->]]. rewrite IH. cbn [length firstn map Nat.leb].
    destruct (Nat.leb n (length (filter acceptedb rest))); reflexivity.
  - rewrite F. reflexivity.
Qed.

Lemma insert_z_perm x l : Permutation (insert_z x l) (x :: l).
Proof.
  induction l as [|y l IH]; [reflexivity|]. cbn [insert_z]. destruct (x <=? y); [reflexivity|].
  etransitivity; [apply perm_skip, IH|apply perm_swap].
Qed.

Lemma sort_z_perm l : Permutation (sort_z l) l.
Proof. exact (fold_insert_perm insert_z insert_z_perm l). Qed.

Lemma mem_l_spec x l : mem_l x l = true <-> In x l.
Proof.
  induction l as [|y l IH]; cbn [mem_l In]; [split; [discriminate|contradiction]|].
  rewrite orb_true_iff, list_eqb_spec, IH. split; intros [H|H]; auto.
Qed.

Lemma nodup_l_sound l : nodup_l l = true -> NoDup l.
Proof.
  induction l as [|x l IH]; [constructor|]. cbn [nodup_l]. rewrite andb_true_iff, negb_true_iff.
  intros [M N]. constructor; [|apply IH; exact N]. intro H. apply mem_l_spec in H. congruence.
Qed.

Lemma canonical_digest_sound d : canonical_digest d = true -> canonical d.
Proof.
  unfold canonical_digest, canonical. rewrite andb_true_iff, Nat.eqb_eq, forallb_forall.
  intros [L F]. split; [exact L|]. rewrite Forall_forall. intros v Hv. specialize (F v Hv).
  rewrite andb_true_iff, Z.leb_le, Z.ltb_lt in F. change INPUTS_GOLDILOCKS_ORDER with p in F. exact F.
Qed.

Lemma canonical_digests_sound l : forallb canonical_digest l = true -> Forall canonical l.
Proof. rewrite forallb_Forall. apply Forall_impl, canonical_digest_sound. Qed.

Lemma private_obs_ok_sound k n labels pre : private_obs_ok k n labels pre = true ->
  Permutation labels (real_labels k ++ repeat 0 (n - k)) /\ length labels = n /\
  length (chunks4 pre) = n /\ Forall canonical (chunks4 pre) /\ NoDup (chunks4 pre).
Proof.
  unfold private_obs_ok. rewrite !andb_true_iff, !Nat.eqb_eq, list_eqb_spec.
  intros [[[[S L] L4] C] N].
  split.
  - unfold pad in S. unfold real_labels in *. rewrite map_length, seq_length in S.
    etransitivity; [symmetry; apply sort_z_perm|]. rewrite S. apply sort_z_perm.
  - split; [exact L|]. split; [exact L4|]. split; [apply canonical_digests_sound, C|apply nodup_l_sound, N].
Qed.

Lemma public_obs_ok_spec k n labels : public_obs_ok k n labels = true <->
  labels = real_labels k ++ repeat 0 (n - k).
Proof.
  unfold public_obs_ok, pad, real_labels. rewrite list_eqb_spec, map_length, seq_length. tauto.
Qed.

Lemma fresh_ok_sound pre1 pre2 : fresh_ok pre1 pre2 = true ->
  NoDup (chunks4 pre1 ++ chunks4 pre2) /\ Forall canonical (chunks4 pre1 ++ chunks4 pre2).
Proof.
  unfold fresh_ok. rewrite andb_true_iff. intros [C N].
  split; [apply nodup_l_sound, N|apply canonical_digests_sound, C].
Qed.
