From V.Base Require Import Common.
From V.Generated Require Import Constants.
From V.Sys Require Import TransferJson.

Definition sum (l : list Z) : Z := fold_right Z.add 0 l.
Definition nonneg (l : list Z) : Prop := Forall (fun x => 0 <= x) l.
Definition all_u64 (l : list Z) : Prop := Forall (fun x => 0 <= x < two64) l.

(* values of the entries with key k, in document order *)
Definition vals (es : list entry) (k : Z) : list jval :=
  map snd (filter (fun e => fst e =? k) es).
(* "key k occurs exactly once in the object, with value v" *)
Definition field (es : list entry) (k : Z) (v : jval) : Prop := vals es k = [v].

(* the harness-side description is meaningful: lengths are lengths *)
Definition jval_ok (v : jval) : Prop :=
  match v with JStr len => 0 <= len | JStrs lens => nonneg lens | _ => True end.
Definition entries_ok (es : list entry) : Prop := Forall (fun e => jval_ok (snd e)) es.

(* `if x > cap { return Err(..) }` *)
Lemma guard_le_bind_ok_iff {B} cap x c (k : res B) r :
  (_ <-? guard (negb (cap <? x)) c ;; k) = Ok r <-> x <= cap /\ k = Ok r.
Proof. rewrite guard_bind_ok_iff, negb_true_iff, Z.ltb_ge. reflexivity. Qed.

Lemma is_u64_iff x : is_u64 x = true <-> 0 <= x < two64.
Proof. unfold is_u64. rewrite andb_true_iff, Z.leb_le, Z.ltb_lt. reflexivity. Qed.

Lemma sum_nonneg l : nonneg l -> 0 <= sum l.
Proof. induction 1 as [|x l Hx _ IH]; cbn [sum fold_right]; [lia|fold (sum l); lia]. Qed.

Lemma as_strs_nonneg v l : as_strs v = Some l -> jval_ok v -> nonneg l.
Proof.
  destruct v as [x|x|ls|[|]|]; cbn [as_strs jval_ok]; intros E Hok; try discriminate E; inversion E; subst;
    [exact Hok|constructor].
Qed.

Lemma checked_add_some a b : a + b < two64 -> checked_add a b = Some (a + b).
Proof. intro H. unfold checked_add. apply Z.ltb_lt in H. rewrite H. reflexivity. Qed.

Lemma validate_nodes_iff (nodes : list Z) : forall total,
  nonneg nodes -> 0 <= total <= MAX_STORAGE_PROOF_HEX_BYTES ->
  (validate_nodes nodes total = Ok tt <->
   Forall (fun n => n <= MAX_STORAGE_PROOF_NODE_HEX_LEN) nodes /\ total + sum nodes <= MAX_STORAGE_PROOF_HEX_BYTES).
Proof.
  induction nodes as [|n r IH]; intros total Hnn Htot.
  - cbn [validate_nodes sum fold_right]. split; [intros _; split; [constructor|lia]|reflexivity].
  - inversion Hnn as [|? ? Hn Hr]; subst. pose proof (sum_nonneg r Hr).
    (* the running total cannot overflow a usize: it is capped before the next node, itself capped, is added *)
    assert (MAX_STORAGE_PROOF_HEX_BYTES + MAX_STORAGE_PROOF_NODE_HEX_LEN < two64) by reflexivity.
    cbn [validate_nodes sum fold_right]. fold (sum r).
    rewrite guard_le_bind_ok_iff, Forall_cons_iff.
    destruct (Z.le_gt_cases n MAX_STORAGE_PROOF_NODE_HEX_LEN); [|split; intro K; lia].
    rewrite checked_add_some, guard_le_bind_ok_iff by lia.
    destruct (Z.le_gt_cases (total + n) MAX_STORAGE_PROOF_HEX_BYTES); [|split; intro K; lia].
    rewrite IH, Z.add_assoc by (assumption || lia). tauto.
Qed.

Lemma validate_nodes_all (nodes : list Z) :
  nonneg nodes ->
  (validate_nodes nodes 0 = Ok tt <->
   Forall (fun n => n <= MAX_STORAGE_PROOF_NODE_HEX_LEN) nodes /\ sum nodes <= MAX_STORAGE_PROOF_HEX_BYTES).
Proof. intro H. rewrite (validate_nodes_iff nodes 0 H) by (split; discriminate). reflexivity. Qed.

(* The storage-proof visitor caps the node count and otherwise performs the checks of [validate_nodes] (a node
   cap, the checked addition, the cap on the total) under other error codes. *)
Lemma sp_visit_validate (rest : list Z) : forall out_len total,
  0 <= out_len <= MAX_STORAGE_PROOF_NODES ->
  (sp_visit rest out_len total = Ok tt <->
   out_len + zlen rest <= MAX_STORAGE_PROOF_NODES /\ validate_nodes rest total = Ok tt).
Proof.
  induction rest as [|n r IH]; intros o t Ho; cbn [sp_visit validate_nodes].
  - rewrite zlen_nil. destruct (o <? MAX_STORAGE_PROOF_NODES); (split; [intros _; split; [lia|reflexivity]|reflexivity]).
  - rewrite zlen_cons. pose proof (zlen_nonneg r).
    destruct (Z.ltb_spec o MAX_STORAGE_PROOF_NODES); [|split; [discriminate|intros [? _]; lia]].
    unfold de_node.
    destruct (negb (MAX_STORAGE_PROOF_NODE_HEX_LEN <? n)); cbn [guard rbind]; [|intuition discriminate].
    destruct (checked_add t n) as [t'|]; [|intuition discriminate].
    destruct (negb (MAX_STORAGE_PROOF_HEX_BYTES <? t')); cbn [guard rbind]; [|intuition discriminate].
    rewrite IH by lia. split; intros [A B]; (split; [lia|exact B]).
Qed.

Lemma de_storage_proof_ok (v : jval) (l : list Z) :
  de_storage_proof v = Ok l <->
  as_strs v = Some l /\ zlen l <= MAX_STORAGE_PROOF_NODES /\ validate_nodes l 0 = Ok tt.
Proof.
  unfold de_storage_proof. destruct (as_strs v) as [lens|]; [|intuition discriminate].
  rewrite rbind_unit_ok_iff, sp_visit_validate, Z.add_0_l by (split; discriminate).
  intuition congruence.
Qed.

Lemma de_storage_proof_iff (v : jval) (l : list Z) :
  jval_ok v ->
  (de_storage_proof v = Ok l <->
   as_strs v = Some l /\ zlen l <= MAX_STORAGE_PROOF_NODES /\
   Forall (fun n => n <= MAX_STORAGE_PROOF_NODE_HEX_LEN) l /\ sum l <= MAX_STORAGE_PROOF_HEX_BYTES).
Proof.
  intro Hok. rewrite de_storage_proof_ok.
  split; intros (A & L & V); (split; [exact A|split; [exact L|]]);
    apply (validate_nodes_all l (as_strs_nonneg v l A Hok)); exact V.
Qed.

Lemma bv_visit_iff (rest : list Z) : forall out_len,
  0 <= out_len <= MAX_MERKLE_INDICES ->
  (bv_visit rest out_len = Ok tt <-> all_u64 rest /\ out_len + zlen rest <= MAX_MERKLE_INDICES).
Proof.
  induction rest as [|x r IH]; intros out_len Hol.
  - cbn [bv_visit]. rewrite zlen_nil. split; [intros _; split; [constructor|lia]|reflexivity].
  - cbn [bv_visit]. rewrite zlen_cons. pose proof (zlen_nonneg r). unfold all_u64. rewrite Forall_cons_iff.
    rewrite !guard_bind_ok_iff, negb_true_iff, Z.leb_gt, is_u64_iff.
    destruct (Z.lt_ge_cases out_len MAX_MERKLE_INDICES); [|split; intro K; lia].
    rewrite IH by lia. unfold all_u64. intuition lia.
Qed.

Lemma de_indices_iff (v : jval) (l : list Z) :
  de_indices v = Ok l <-> as_ints v = Some l /\ all_u64 l /\ zlen l <= MAX_MERKLE_INDICES.
Proof.
  unfold de_indices. destruct (as_ints v) as [vs|]; [|intuition discriminate].
  rewrite rbind_unit_ok_iff, bv_visit_iff, Z.add_0_l by (split; discriminate).
  intuition congruence.
Qed.

Lemma de_u64_iff (v : jval) (x : Z) : de_u64 v = Ok x <-> v = JInt x /\ 0 <= x < two64.
Proof.
  destruct v as [y|y|ls|vs|]; cbn [de_u64]; try (split; [discriminate|intros [E _]; discriminate E]).
  rewrite rbind_unit_ok_iff, guard_ok_iff, is_u64_iff. intuition congruence.
Qed.

Lemma de_state_root_iff (v : jval) (x : Z) :
  de_state_root v = Ok x <-> v = JStr x /\ x <= MAX_STATE_ROOT_HEX_LEN.
Proof.
  destruct v as [y|y|ls|vs|]; cbn [de_state_root]; try (split; [discriminate|intros [E _]; discriminate E]).
  rewrite guard_le_bind_ok_iff. intuition congruence.
Qed.

(* The derived map visitor, one field at a time: what happens to the slot of a field while the entries [vs] that
   carry its key are visited. *)
Fixpoint slot_run {A} (de : jval -> res A) (cur : option A) (vs : list jval) : res (option A) :=
  match vs with
  | [] => Ok cur
  | v :: r => match cur with Some _ => Err 50 | None => x <-? de v ;; slot_run de (Some x) r end
  end.

Lemma slot_run_filled {A} (de : jval -> res A) vs x :
  slot_run de None vs = Ok (Some x) <-> exists v, vs = [v] /\ de v = Ok x.
Proof.
  destruct vs as [|v [|w vs]]; cbn [slot_run].
  - split; [discriminate|intros (v & E & _); discriminate E].
  - destruct (de v) as [y|c] eqn:D; cbn [rbind];
      (split; [intro H; inversion H; subst; eauto|intros (v' & E & D'); inversion E; subst; congruence]).
  - destruct (de v); cbn [rbind]; (split; [discriminate|intros (v' & E & _); discriminate E]).
Qed.

Lemma vals_cons k v r j : vals ((k, v) :: r) j = if k =? j then v :: vals r j else vals r j.
Proof. unfold vals. cbn [filter fst]. destruct (k =? j); reflexivity. Qed.

Lemma visit_map_spec (es : list entry) : forall s s',
  visit_map es s = Ok s' <->
  slot_run de_u64 (s_tc s) (vals es K_TRANSFER_COUNT) = Ok (s_tc s') /\
  slot_run de_state_root (s_sr s) (vals es K_STATE_ROOT) = Ok (s_sr s') /\
  slot_run de_storage_proof (s_sp s) (vals es K_STORAGE_PROOF) = Ok (s_sp s') /\
  slot_run de_indices (s_ix s) (vals es K_INDICES) = Ok (s_ix s').
Proof.
  induction es as [|[k v] r IH]; intros s s'.
  - destruct s, s'. cbn. intuition congruence.
  - (* which key; is its slot taken; does its visitor accept: then the rest of the entries, or both sides fail *)
    cbn [visit_map]. rewrite !vals_cons. unfold K_TRANSFER_COUNT, K_STATE_ROOT, K_STORAGE_PROOF, K_INDICES.
    destruct (Z.eqb_spec k 1) as [->|_]; [cbn [Z.eqb Pos.eqb slot_run]; destruct (s_tc s), (de_u64 v)|
    destruct (Z.eqb_spec k 2) as [->|_]; [cbn [Z.eqb Pos.eqb slot_run]; destruct (s_sr s), (de_state_root v)|
    destruct (Z.eqb_spec k 3) as [->|_]; [cbn [Z.eqb Pos.eqb slot_run]; destruct (s_sp s), (de_storage_proof v)|
    destruct (Z.eqb_spec k 4) as [->|_]; [cbn [Z.eqb Pos.eqb slot_run]; destruct (s_ix s), (de_indices v)|]]]];
      cbn [rbind]; first [exact (IH _ _)|split; [discriminate|intros (? & ? & ? & ?); discriminate]].
Qed.

Lemma finish_ok_iff (s : Slots) (d : Doc) :
  finish s = Ok d <->
  s = mkSlots (Some (d_transfer_count d)) (Some (d_state_root_len d)) (Some (d_nodes d)) (Some (d_indices d)).
Proof.
  split; [|intros ->; destruct d; reflexivity].
  destruct s as [[a|] [b|] [c|] [e|]]; cbn [finish s_tc s_sr s_sp s_ix]; intro H; try discriminate H.
  inversion H. reflexivity.
Qed.

(* the four raw values of the document, placed as in [decodes_to] below *)
Definition raw_fields (t : top) (v1 v2 v3 v4 : jval) : Prop :=
  match t with
  | TObj es => field es K_TRANSFER_COUNT v1 /\ field es K_STATE_ROOT v2 /\ field es K_STORAGE_PROOF v3 /\
               field es K_INDICES v4
  | TSeq vs => vs = [v1; v2; v3; v4]
  end.

Definition fields_decode (v1 v2 v3 v4 : jval) (d : Doc) : Prop :=
  de_u64 v1 = Ok (d_transfer_count d) /\ de_state_root v2 = Ok (d_state_root_len d) /\
  de_storage_proof v3 = Ok (d_nodes d) /\ de_indices v4 = Ok (d_indices d).

Lemma parse_obj_ok_iff (es : list entry) (d : Doc) :
  parse_obj es = Ok d <-> exists v1 v2 v3 v4, raw_fields (TObj es) v1 v2 v3 v4 /\ fields_decode v1 v2 v3 v4 d.
Proof.
  unfold parse_obj, raw_fields, fields_decode, field. rewrite rbind_ok_iff. split.
  - intros (s' & Hv & Hf). apply finish_ok_iff in Hf. subst s'. apply visit_map_spec in Hv as (H1 & H2 & H3 & H4).
    apply slot_run_filled in H1 as (v1 & ? & ?), H2 as (v2 & ? & ?), H3 as (v3 & ? & ?), H4 as (v4 & ? & ?).
    exists v1, v2, v3, v4. repeat split; assumption.
  - intros (v1 & v2 & v3 & v4 & (? & ? & ? & ?) & (? & ? & ? & ?)).
    eexists. split; [|apply finish_ok_iff; reflexivity].
    apply visit_map_spec. repeat split; apply slot_run_filled; eauto.
Qed.

Lemma parse_seq_ok_iff (vs : list jval) (d : Doc) :
  parse_seq vs = Ok d <-> exists v1 v2 v3 v4, raw_fields (TSeq vs) v1 v2 v3 v4 /\ fields_decode v1 v2 v3 v4 d.
Proof.
  unfold raw_fields, fields_decode. split.
  - intro H. destruct vs as [|a [|b [|c [|e [|x r]]]]]; try discriminate H. cbn [parse_seq] in H.
    apply rbind_ok_iff in H as (tc & H1 & H). apply rbind_ok_iff in H as (sr & H2 & H).
    apply rbind_ok_iff in H as (sp & H3 & H). apply rbind_ok_iff in H as (ix & H4 & [= <-]).
    exists a, b, c, e. repeat split; assumption.
  - intros (a & b & c & e & -> & H1 & H2 & H3 & H4). cbn [parse_seq].
    rewrite H1, H2, H3, H4. destruct d; reflexivity.
Qed.

Lemma serde_parse_ok_iff (wf : bool) (t : top) (d : Doc) :
  serde_parse wf t = Ok d <->
  wf = true /\ exists v1 v2 v3 v4, raw_fields t v1 v2 v3 v4 /\ fields_decode v1 v2 v3 v4 d.
Proof. unfold serde_parse. rewrite guard_bind_ok_iff. destruct t; [rewrite parse_obj_ok_iff|rewrite parse_seq_ok_iff]; reflexivity. Qed.

Definition top_ok (t : top) : Prop :=
  match t with TObj es => entries_ok es | TSeq vs => Forall jval_ok vs end.

(* the storage-proof value is one of the values of the document *)
Lemma raw_fields_sp_ok t v1 v2 v3 v4 : top_ok t -> raw_fields t v1 v2 v3 v4 -> jval_ok v3.
Proof.
  destruct t as [es|vs]; cbn [top_ok raw_fields].
  - intros Hok (_ & _ & F3 & _).
    assert (Hin : In v3 (vals es K_STORAGE_PROOF)) by (rewrite F3; left; reflexivity).
    apply in_map_iff in Hin. destruct Hin as (e & <- & Hin). apply filter_In in Hin.
    apply (proj1 (Forall_forall _ _) Hok), Hin.
  - intros Hok ->. apply (proj1 (Forall_forall _ _) Hok). do 2 right. left. reflexivity.
Qed.

(* "the document carries the four fields, each exactly once and of the right JSON shape, and [d] is their
   decoded content": as members of a top-level object (any order, unknown members ignored) or as the
   four elements of a top-level array (declaration order) *)
Definition decodes_to (t : top) (d : Doc) : Prop :=
  match t with
  | TObj es =>
    field es K_TRANSFER_COUNT (JInt (d_transfer_count d)) /\
    field es K_STATE_ROOT (JStr (d_state_root_len d)) /\
    (exists v, field es K_STORAGE_PROOF v /\ as_strs v = Some (d_nodes d)) /\
    (exists v, field es K_INDICES v /\ as_ints v = Some (d_indices d))
  | TSeq vs =>
    exists v3 v4, vs = [JInt (d_transfer_count d); JStr (d_state_root_len d); v3; v4] /\
                  as_strs v3 = Some (d_nodes d) /\ as_ints v4 = Some (d_indices d)
  end.

Lemma decodes_to_raw (t : top) (d : Doc) :
  decodes_to t d <->
  exists v3 v4, raw_fields t (JInt (d_transfer_count d)) (JStr (d_state_root_len d)) v3 v4 /\
                as_strs v3 = Some (d_nodes d) /\ as_ints v4 = Some (d_indices d).
Proof.
  destruct t as [es|vs]; cbn [decodes_to raw_fields]; [|reflexivity]. split.
  - intros (F1 & F2 & (v3 & F3 & A3) & (v4 & F4 & A4)). exists v3, v4. tauto.
  - intros (v3 & v4 & (F1 & F2 & F3 & F4) & A3 & A4). split; [exact F1|split; [exact F2|split; eexists; split; eassumption]].
Qed.

Definition within_caps (d : Doc) : Prop :=
  0 <= d_transfer_count d < two64 /\
  d_state_root_len d <= MAX_STATE_ROOT_HEX_LEN /\
  zlen (d_nodes d) <= MAX_STORAGE_PROOF_NODES /\
  Forall (fun n => n <= MAX_STORAGE_PROOF_NODE_HEX_LEN) (d_nodes d) /\ sum (d_nodes d) <= MAX_STORAGE_PROOF_HEX_BYTES /\
  all_u64 (d_indices d) /\ zlen (d_indices d) <= MAX_MERKLE_INDICES.

Lemma fields_decode_iff (v1 v2 v3 v4 : jval) (d : Doc) :
  jval_ok v3 ->
  (fields_decode v1 v2 v3 v4 d <->
   v1 = JInt (d_transfer_count d) /\ v2 = JStr (d_state_root_len d) /\
   as_strs v3 = Some (d_nodes d) /\ as_ints v4 = Some (d_indices d) /\ within_caps d).
Proof.
  intro Hok. unfold fields_decode, within_caps. split.
  - intros (D1 & D2 & D3 & D4).
    apply de_u64_iff in D1 as (-> & ? & ?). apply de_state_root_iff in D2 as (-> & ?).
    apply (de_storage_proof_iff _ _ Hok) in D3 as (? & ? & ? & ?). apply de_indices_iff in D4 as (? & ? & ?).
    repeat split; assumption.
  - intros (-> & -> & ? & ? & (? & ?) & ? & ? & ? & ? & ? & ?).
    split; [apply de_u64_iff|split; [apply de_state_root_iff|split; [apply (de_storage_proof_iff _ _ Hok)|apply de_indices_iff]]];
      repeat split; assumption.
Qed.

Lemma from_json_str_ok_iff_parse (raw_len : Z) (wf : bool) (t : top) (d : Doc) :
  from_json_str raw_len wf t = Ok d <-> raw_len <= MAX_TRANSFER_PROOF_JSON_BYTES /\ serde_parse wf t = Ok d.
Proof.
  unfold from_json_str. destruct (Z.ltb_spec MAX_TRANSFER_PROOF_JSON_BYTES raw_len).
  - split; [discriminate|intros [? _]; lia].
  - destruct (serde_parse wf t); intuition discriminate.
Qed.

(* the exact acceptance set, with the caps by name *)
Lemma from_json_str_accept_iff (raw_len : Z) (wf : bool) (t : top) (d : Doc) :
  top_ok t ->
  (from_json_str raw_len wf t = Ok d <->
   raw_len <= MAX_TRANSFER_PROOF_JSON_BYTES /\ wf = true /\ decodes_to t d /\ within_caps d).
Proof.
  intro Hok. rewrite from_json_str_ok_iff_parse, serde_parse_ok_iff, decodes_to_raw. split.
  - intros (Hraw & Hwf & v1 & v2 & v3 & v4 & F & D).
    apply fields_decode_iff in D; [|exact (raw_fields_sp_ok _ _ _ _ _ Hok F)]. destruct D as (-> & -> & A3 & A4 & Hc).
    eauto 10.
  - intros (Hraw & Hwf & (v3 & v4 & F & A3 & A4) & Hc). split; [exact Hraw|split; [exact Hwf|]].
    exists (JInt (d_transfer_count d)), (JStr (d_state_root_len d)), v3, v4. split; [exact F|].
    apply fields_decode_iff; [exact (raw_fields_sp_ok _ _ _ _ _ Hok F)|tauto].
Qed.

Lemma validate_ok_raw (d : Doc) :
  validate d = Ok tt <->
  d_state_root_len d <= MAX_STATE_ROOT_HEX_LEN /\ zlen (d_nodes d) <= MAX_STORAGE_PROOF_NODES /\
  validate_nodes (d_nodes d) 0 = Ok tt /\ zlen (d_indices d) <= MAX_MERKLE_INDICES.
Proof.
  unfold validate. do 2 (rewrite guard_le_bind_ok_iff; apply and_iff_compat_l).
  rewrite rbind_unit_ok_iff. apply and_iff_compat_l. rewrite guard_le_bind_ok_iff. tauto.
Qed.

(* Everything the parser accepts passes the standalone validation: the visitors have made the same checks
   (sp_visit_validate), whatever the document looked like. *)
Lemma accept_implies_validate (raw_len : Z) (wf : bool) (t : top) (d : Doc) :
  from_json_str raw_len wf t = Ok d -> validate d = Ok tt.
Proof.
  rewrite from_json_str_ok_iff_parse, serde_parse_ok_iff.
  intros (_ & _ & v1 & v2 & v3 & v4 & _ & _ & D2 & D3 & D4).
  apply de_state_root_iff in D2 as [_ ?]. apply de_storage_proof_ok in D3 as (_ & ? & ?).
  apply de_indices_iff in D4 as (_ & _ & ?). apply validate_ok_raw. repeat split; assumption.
Qed.
