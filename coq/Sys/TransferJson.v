(* Executable model of the transfer-proof document parser (C35).
     common/src/circuit.rs : TransferProofJson::{from_json_str, validate},
                             deserialize_bounded_state_root, deserialize_bounded_storage_proof (NodeVisitor,
                             StorageProofVisitor), deserialize_bounded_vec / deserialize_bounded_indices,
                             #[derive(Deserialize)] TransferProofJsonRaw
   What is modelled: the raw-length gate, then the parser as a function of the *decoded* document: a JSON
   object given as its ordered list of (key, value) entries (or a top-level array given as its elements), where a value is described by what the
   visitors observe (an in-range integer, a string of a decoded byte length, an array of strings, an
   array of integers, or "anything else").  serde_json's lexing (whitespace, escapes, UTF-8, number
   syntax, nesting) is NOT modelled: [wf = false] stands for "serde_json reports a syntax error somewhere in
   the text", and the decoded lengths are inputs.
   Lengths are usize values (Z).  Only the class of the result is compared with the implementation
   (Ok doc / Err raw-cap / Err parse). *)
From V.Base Require Import Common.
From V.Generated Require Import Constants.

Definition PANIC : Z := -1.
Definition E_RAW : Z := 1.      (* "transfer proof JSON exceeds .. bytes; refusing to parse it" *)
Definition E_PARSE : Z := 2.    (* "failed to parse transfer proof JSON: .."  (every serde error) *)

(* usize::checked_add on a 64-bit target *)
Definition checked_add (a b : Z) : option Z := if a + b <? two64 then Some (a + b) else None.

(* ---------------------------------------------------------------- decoded JSON values *)

Inductive jval :=
| JInt (v : Z)              (* a JSON integer literal (no sign, fraction or exponent) of value v >= 0 *)
| JStr (len : Z)            (* a JSON string; len = byte length of the decoded (unescaped, UTF-8) content *)
| JStrs (lens : list Z)     (* an array whose elements are all strings: decoded byte lengths *)
| JInts (vals : list Z)     (* an array whose elements are all non-negative integer literals *)
| JOther.                   (* any other well-formed JSON value: null, bool, float, negative, object, mixed array *)

(* keys of the derive(Deserialize) field matcher; every other key is an ignored unknown field *)
Definition K_TRANSFER_COUNT : Z := 1.
Definition K_STATE_ROOT : Z := 2.
Definition K_STORAGE_PROOF : Z := 3.
Definition K_INDICES : Z := 4.

Definition entry := (Z * jval)%type.

(* the parsed document: the lengths are all that the caps and [validate] look at *)
Record Doc := mkDoc {
  d_transfer_count : Z;
  d_state_root_len : Z;
  d_nodes : list Z;          (* storage_proof[i].len() *)
  d_indices : list Z }.

(* ---------------------------------------------------------------- the bounded visitors *)

(* u64 / usize from a JSON integer literal *)
Definition de_u64 (v : jval) : res Z :=
  match v with JInt x => _ <-? guard (is_u64 x) 30 ;; Ok x | _ => Err 31 end.

(* deserialize_bounded_state_root: visit_str / visit_string *)
Definition de_state_root (v : jval) : res Z :=
  match v with
  | JStr len => _ <-? guard (negb (MAX_STATE_ROOT_HEX_LEN <? len)) 32 ;; Ok len
  | _ => Err 33
  end.

(* NodeVisitor: one storage-proof node *)
Definition de_node (len : Z) : res Z :=
  _ <-? guard (negb (MAX_STORAGE_PROOF_NODE_HEX_LEN <? len)) 34 ;; Ok len.

(* StorageProofVisitor::visit_seq.  [rest] = elements not yet consumed, [out_len] = out.len(),
   [total] = total_bytes.
     while out.len() < MAX_STORAGE_PROOF_NODES { next_element()? else return Ok; checked_add; cap; push }
     if next_element::<IgnoredAny>()?.is_some() { Err } ; Ok *)
Fixpoint sp_visit (rest : list Z) (out_len total : Z) {struct rest} : res unit :=
  if out_len <? MAX_STORAGE_PROOF_NODES then
    match rest with
    | [] => Ok tt
    | n :: r =>
      node <-? de_node n ;;
      match checked_add total node with
      | None => Err 35
      | Some t =>
        _ <-? guard (negb (MAX_STORAGE_PROOF_HEX_BYTES <? t)) 36 ;;
        sp_visit r (out_len + 1) t
      end
    end
  else
    match rest with
    | [] => Ok tt
    | _ :: _ => Err 37
    end.

(* an empty array is both an array of strings and an array of integers *)
Definition as_strs (v : jval) : option (list Z) :=
  match v with JStrs l => Some l | JInts [] => Some [] | _ => None end.
Definition as_ints (v : jval) : option (list Z) :=
  match v with JInts l => Some l | JStrs [] => Some [] | _ => None end.

Definition de_storage_proof (v : jval) : res (list Z) :=
  match as_strs v with
  | Some lens => _ <-? sp_visit lens 0 0 ;; Ok lens
  | None => Err 38
  end.

(* BoundedSeqVisitor::visit_seq for indices (T = usize):
     while let Some(item) = seq.next_element()? { if out.len() >= max { Err } ; push } *)
Fixpoint bv_visit (rest : list Z) (out_len : Z) {struct rest} : res unit :=
  match rest with
  | [] => Ok tt
  | x :: r =>
    _ <-? guard (is_u64 x) 39 ;;
    _ <-? guard (negb (MAX_MERKLE_INDICES <=? out_len)) 40 ;;
    bv_visit r (out_len + 1)
  end.

Definition de_indices (v : jval) : res (list Z) :=
  match as_ints v with
  | Some vals => _ <-? bv_visit vals 0 ;; Ok vals
  | None => Err 41
  end.

(* ---------------------------------------------------------------- derive(Deserialize) for the 4-field struct
   visit_map: known key already seen -> duplicate field; known key -> run its deserializer; unknown key ->
   IgnoredAny.  After the last entry every field must have been seen. *)

Record Slots := mkSlots {
  s_tc : option Z; s_sr : option Z; s_sp : option (list Z); s_ix : option (list Z) }.

Definition no_slots : Slots := mkSlots None None None None.

Fixpoint visit_map (es : list entry) (s : Slots) {struct es} : res Slots :=
  match es with
  | [] => Ok s
  | (k, v) :: r =>
    if k =? K_TRANSFER_COUNT then
      match s_tc s with
      | Some _ => Err 50
      | None => x <-? de_u64 v ;; visit_map r (mkSlots (Some x) (s_sr s) (s_sp s) (s_ix s))
      end
    else if k =? K_STATE_ROOT then
      match s_sr s with
      | Some _ => Err 50
      | None => x <-? de_state_root v ;; visit_map r (mkSlots (s_tc s) (Some x) (s_sp s) (s_ix s))
      end
    else if k =? K_STORAGE_PROOF then
      match s_sp s with
      | Some _ => Err 50
      | None => x <-? de_storage_proof v ;; visit_map r (mkSlots (s_tc s) (s_sr s) (Some x) (s_ix s))
      end
    else if k =? K_INDICES then
      match s_ix s with
      | Some _ => Err 50
      | None => x <-? de_indices v ;; visit_map r (mkSlots (s_tc s) (s_sr s) (s_sp s) (Some x))
      end
    else visit_map r s
  end.

Definition finish (s : Slots) : res Doc :=
  match s_tc s, s_sr s, s_sp s, s_ix s with
  | Some tc, Some sr, Some sp, Some ix => Ok (mkDoc tc sr sp ix)
  | _, _, _, _ => Err 51       (* missing field *)
  end.

Definition parse_obj (es : list entry) : res Doc :=
  s <-? visit_map es no_slots ;;
  finish s.

(* derive(Deserialize) also generates visit_seq, and serde_json's deserialize_struct hands a top-level
   JSON *array* to it: the elements are the fields in declaration order, through the same bounded
   visitors; fewer than four elements is invalid_length, more than four fails serde_json's end_seq. *)
Definition parse_seq (vs : list jval) : res Doc :=
  match vs with
  | [a; b; c; e] =>
    tc <-? de_u64 a ;;
    sr <-? de_state_root b ;;
    sp <-? de_storage_proof c ;;
    ix <-? de_indices e ;;
    Ok (mkDoc tc sr sp ix)
  | _ => Err 53
  end.

(* the decoded top-level value: an object (ordered members) or an array (ordered elements);
   any other top-level value is described as [wf = false] *)
Inductive top :=
| TObj (es : list entry)
| TSeq (vs : list jval).

(* serde_json::from_str::<TransferProofJsonRaw> on a text whose decoded content is (wf, t) *)
Definition serde_parse (wf : bool) (t : top) : res Doc :=
  _ <-? guard wf 52 ;;
  match t with
  | TObj es => parse_obj es
  | TSeq vs => parse_seq vs
  end.

(* TransferProofJson::from_json_str: the raw byte length is looked at first, then the text is parsed *)
Definition from_json_str (raw_len : Z) (wf : bool) (t : top) : res Doc :=
  if MAX_TRANSFER_PROOF_JSON_BYTES <? raw_len then Err E_RAW
  else match serde_parse wf t with
       | Ok d => Ok d
       | Err _ => Err E_PARSE
       end.

(* ---------------------------------------------------------------- TransferProofJson::validate *)

Fixpoint validate_nodes (nodes : list Z) (total : Z) {struct nodes} : res unit :=
  match nodes with
  | [] => Ok tt
  | n :: r =>
    _ <-? guard (negb (MAX_STORAGE_PROOF_NODE_HEX_LEN <? n)) 62 ;;
    match checked_add total n with
    | None => Err 63
    | Some t =>
      _ <-? guard (negb (MAX_STORAGE_PROOF_HEX_BYTES <? t)) 64 ;;
      validate_nodes r t
    end
  end.

Definition validate (d : Doc) : res unit :=
  _ <-? guard (negb (MAX_STATE_ROOT_HEX_LEN <? d_state_root_len d)) 60 ;;
  _ <-? guard (negb (MAX_STORAGE_PROOF_NODES <? zlen (d_nodes d))) 61 ;;
  _ <-? validate_nodes (d_nodes d) 0 ;;
  _ <-? guard (negb (MAX_MERKLE_INDICES <? zlen (d_indices d))) 65 ;;
  Ok tt.

(* ---------------------------------------------------------------- encodings for the correspondence *)

Definition enc_doc (d : Doc) : list Z :=
  [d_transfer_count d; d_state_root_len d; zlen (d_nodes d); zlen (d_indices d)] ++ d_nodes d ++ d_indices d.

Definition enc_unit (r : res unit) : Z := match r with Ok _ => 1 | Err _ => 0 end.

(* Ok d -> 1 :: validate(d) :: doc ;  Err kind -> [0; kind] *)
Definition enc_parse (r : res Doc) : list Z :=
  match r with
  | Ok d => 1 :: enc_unit (validate d) :: enc_doc d
  | Err c => if c =? PANIC then [PANIC] else [0; c]
  end.

(* head segment: [raw_len; wf; shape]  shape 0 = top-level object, 1 = top-level array (keys unused)
   entry segment: key :: type :: payload   type: 0 other, 1 int (value), 2 string (len),
   3 array of strings (lens), 4 array of ints (values) *)
Definition dec_entry (l : list Z) : entry :=
  match l with
  | k :: t :: payload =>
    (k, if t =? 1 then JInt (nth 0 payload 0)
        else if t =? 2 then JStr (nth 0 payload 0)
        else if t =? 3 then JStrs payload
        else if t =? 4 then JInts payload
        else JOther)
  | _ => (0, JOther)
  end.

(* fid 3502, a directly constructed struct: [transfer_count; state_root.len()] ; node lens ; indices *)
Definition json_dispatch (fid : Z) (args : list (list Z)) : list Z :=
  if fid =? 3501 then
    match args with
    | hd :: es =>
      let t := if nth 2 hd 0 =? 0 then TObj (map dec_entry es) else TSeq (map (fun l => snd (dec_entry l)) es) in
      enc_parse (from_json_str (nth 0 hd 0) (negb (nth 1 hd 0 =? 0)) t)
    | [] => [-2]
    end
  else if fid =? 3502 then
    match args with
    | hd :: nodes :: ix :: _ => [enc_unit (validate (mkDoc (nth 0 hd 0) (nth 1 hd 0) nodes ix))]
    | _ => [-2]
    end
  else [-2].
