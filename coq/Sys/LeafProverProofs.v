(* Proofs about the prover-side model of leaf proving (model: LeafProver.v; circuit: Circ/Leaf.v with
   Circ/LeafProofs.v).

   [fill] never panics and fails exactly on an over-deep path, a positions/siblings length mismatch or
   a position above 3.  For every well-formed honest input the filled assignment is well-formed and
   satisfies the acceptance condition [leaf_ok] of the leaf circuit, so honest witness generation
   succeeds with the 21 public inputs [layout21 x], which parse back to the statement.  The
   cryptographic step (a satisfying witness yields a proof the pinned verifier accepts) is not
   modelled here; the correspondence harness checks it on every case. *)
From V.Base Require Import Common.
From V.Generated Require Import Constants.
From V.Circ Require Import Field Core Prims Gadgets GadgetsProofs Leaf LeafProofs.
From V.Sys Require Import Parsers ParsersProofs LeafProver.
Import ListNotations.

Lemma inputs_order_pin : INPUTS_GOLDILOCKS_ORDER = p. Proof. reflexivity. Qed.
Lemma leaf_pi_len_pin : LEAF_PI_LEN = 21. Proof. reflexivity. Qed.

Record wf_x (x : ProverIn) : Prop := mk_wf_x {
  wx_asset : 0 <= x_asset x < 2 ^ 32;
  wx_out1 : 0 <= x_out1 x < 2 ^ 32;
  wx_out2 : 0 <= x_out2 x < 2 ^ 32;
  wx_fee : 0 <= x_fee x < 2 ^ 32;
  wx_input_amount : 0 <= x_input_amount x < 2 ^ 32;
  wx_block_number : 0 <= x_block_number x < 2 ^ 32;
  wx_transfer_count : 0 <= x_transfer_count x < 2 ^ 64;
  wx_nullifier : wf_list 4 (x_nullifier x);
  wx_exit1 : wf_list 4 (x_exit1 x);
  wx_exit2 : wf_list 4 (x_exit2 x);
  wx_block_hash : wf_list 4 (x_block_hash x);
  wx_secret : wf_list 4 (x_secret x);
  wx_unspendable_account : wf_list 4 (x_unspendable_account x);
  wx_parent_hash : wf_list 4 (x_parent_hash x);
  wx_state_root : wf_list 4 (x_state_root x);
  wx_extrinsics_root : wf_list 4 (x_extrinsics_root x);
  wx_tree_root : wf_list 4 (x_tree_root x);
  wx_digest : wf_list (Z.to_nat DIGEST_LOGS_FELTS) (x_digest x);
  wx_siblings : Forall wf_level (x_siblings x)
}.

Definition wf_xb (x : ProverIn) : bool :=
  forallb is_u32 [x_asset x; x_out1 x; x_out2 x; x_fee x; x_input_amount x; x_block_number x] &&
  is_u64 (x_transfer_count x) &&
  forallb (wf_listb 4) [x_nullifier x; x_exit1 x; x_exit2 x; x_block_hash x; x_secret x;
                        x_unspendable_account x; x_parent_hash x; x_state_root x; x_extrinsics_root x;
                        x_tree_root x] &&
  wf_listb (Z.to_nat DIGEST_LOGS_FELTS) (x_digest x) &&
  forallb wf_levelb (x_siblings x).

Lemma is_u64_pow x : is_u64 x = true <-> 0 <= x < 2 ^ 64.
Proof. unfold is_u64. rewrite andb_true_iff, Z.leb_le, Z.ltb_lt. change two64 with (2 ^ 64). tauto. Qed.

Lemma wf_xb_sound x : wf_xb x = true -> wf_x x.
Proof.
  unfold wf_xb. cbn [forallb]. intros W. split_andb W.
  constructor;
    first [apply is_u32_iff|apply is_u64_pow|apply wf_listb_spec
          |apply (forallb_Forall_iff wf_levelb); [intros; apply wf_levelb_spec|]];
    assumption.
Qed.

Definition x_leaf_preimage (x : ProverIn) : list Z :=
  x_unspendable_account x ++ tc_limbs (x_transfer_count x) ++ [x_asset x; x_input_amount x].
Definition x_header_preimage (x : ProverIn) : list Z :=
  x_parent_hash x ++ [x_block_number x] ++ x_state_root x ++ x_extrinsics_root x ++ x_tree_root x
  ++ x_digest x.
Definition x_dummy_stmt (x : ProverIn) : Prop :=
  x_block_hash x = [0; 0; 0; 0] /\ x_out1 x = 0 /\ x_out2 x = 0.

Record honest (H : list Z -> list Z) (x : ProverIn) : Prop := mk_honest {
  hx_depth : (length (x_siblings x) <= 16)%nat;
  hx_positions_len : length (x_positions x) = length (x_siblings x);
  hx_positions : Forall (fun q => 0 <= q <= 3) (x_positions x);
  hx_fee : x_fee x <= 10000;
  hx_rule : (x_out1 x + x_out2 x) * 10000 <= x_input_amount x * (10000 - x_fee x);
  hx_account : x_unspendable_account x = H (H (UNSPENDABLE_SALT_FELTS ++ x_secret x));
  hx_bindings : ~ x_dummy_stmt x ->
    x_nullifier x = H (H (NULLIFIER_SALT_FELTS ++ x_secret x ++ tc_limbs (x_transfer_count x))) /\
    x_tree_root x = fold_insert H (H (x_leaf_preimage x)) (combine (x_siblings x) (x_positions x)) /\
    x_block_hash x = H (x_header_preimage x)
}.

Lemma x_is_dummy_spec x : x_is_dummy x = true <-> x_dummy_stmt x.
Proof. unfold x_is_dummy, x_dummy_stmt. rewrite !andb_true_iff, list_eqb_spec, !Z.eqb_eq. tauto. Qed.

Definition filled (x : ProverIn) : LeafIn :=
  mkLeafIn (x_asset x) (x_out1 x) (x_out2 x) (x_fee x)
           (x_unspendable_account x) (tc_limbs (x_transfer_count x)) (x_input_amount x)
           (x_tree_root x) (zlen (x_siblings x)) (if x_is_dummy x then 0 else 1)
           (pad_levels (x_siblings x)) (pad_positions (x_positions x))
           (x_nullifier x) (x_secret x) (tc_limbs (x_transfer_count x))
           (x_unspendable_account x) (x_secret x)
           (x_exit1 x) (x_exit2 x)
           (x_block_hash x) (x_parent_hash x) (x_block_number x) (x_state_root x) (x_extrinsics_root x)
           (x_tree_root x) (x_digest x).

Ltac li_simpl :=
  cbn [filled li_asset li_out1 li_out2 li_fee li_to_account li_leaf_tc li_input_amount li_root_hash li_depth
       li_is_not_dummy li_siblings li_positions li_nullifier li_null_secret li_null_tc li_unsp_account
       li_unsp_secret li_exit1 li_exit2 li_block_hash li_parent_hash li_block_number li_state_root
       li_extrinsics_root li_tree_root li_digest].

Definition fill_rejects (x : ProverIn) : Prop :=
  zlen (x_siblings x) > 16 \/ zlen (x_positions x) <> zlen (x_siblings x) \/
  Exists (fun q => q > 3) (x_positions x).

Lemma positions_gt3_iff ps : forallb (fun q => q <=? 3) ps = false <-> Exists (fun q => q > 3) ps.
Proof.
  induction ps as [|q ps IH]; cbn [forallb]; [split; [discriminate|intros E; inversion E]|].
  rewrite Exists_cons, <- IH, andb_false_iff, Z.leb_gt, Z.gt_lt_iff. reflexivity.
Qed.

(* fill either returns the assignment [filled x] or one of the error codes 1, 2, 3 *)
Lemma fill_cases x :
  (~ fill_rejects x /\ fill x = Ok (filled x)) \/
  (fill_rejects x /\ (fill x = Err 1 \/ fill x = Err 2 \/ fill x = Err 3)).
Proof.
  unfold fill, fill_rejects. change MERKLE_MAX_DEPTH with 16.
  destruct (Z.leb_spec (zlen (x_siblings x)) 16) as [L1|L1]; cbn [guard rbind].
  2:{ right. split; [left; lia|left; reflexivity]. }
  destruct (Z.eqb_spec (zlen (x_positions x)) (zlen (x_siblings x))) as [L2|L2]; cbn [guard rbind].
  2:{ right. split; [right; left; exact L2|right; left; reflexivity]. }
  destruct (forallb (fun q => q <=? 3) (x_positions x)) eqn:L3; cbn [guard rbind].
  - left. split; [|reflexivity]. intros [R|[R|R]]; [lia|contradiction|]. apply positions_gt3_iff in R. congruence.
  - right. split; [|right; right; reflexivity]. right; right. apply positions_gt3_iff, L3.
Qed.

Theorem fill_rejects_iff x : (exists c, fill x = Err c) <-> fill_rejects x.
Proof.
  destruct (fill_cases x) as [[N E]|[R E]].
  - split; [intros [c Ec]; rewrite E in Ec; discriminate Ec|intros R; contradiction].
  - split; [intros _; exact R|intros _]. destruct E as [E|[E|E]]; eexists; exact E.
Qed.

Theorem fill_no_panic x : fill x <> Err (-1).
Proof.
  destruct (fill_cases x) as [[_ E]|[_ [E|[E|E]]]]; rewrite E; discriminate.
Qed.

Theorem fill_ok_inv x i : fill x = Ok i -> i = filled x.
Proof.
  destruct (fill_cases x) as [[_ E]|[_ [E|[E|E]]]]; rewrite E; intros Q; inversion Q; reflexivity.
Qed.

(* whatever is proved exposes exactly the statement *)
Theorem proved_public_inputs H x i pis : fill x = Ok i -> hon H (leaf_circuit i) = Some pis -> pis = layout21 x.
Proof. intros F E. apply fill_ok_inv in F. subst i. exact (hon_leaf_output H _ _ E). Qed.

(* [pad_levels] and [pad_positions]: sixteen entries, and what holds of the path and of the padding holds of all *)
Lemma pad_spec {A} (P : A -> Prop) z l : (length l <= 16)%nat -> Forall P l -> P z ->
  length (l ++ repeat z (Z.to_nat MERKLE_MAX_DEPTH - length l)) = Z.to_nat MERKLE_MAX_DEPTH /\
  Forall P (l ++ repeat z (Z.to_nat MERKLE_MAX_DEPTH - length l)).
Proof.
  intros L F Pz. rewrite app_length, repeat_length. split; [change (Z.to_nat MERKLE_MAX_DEPTH) with 16%nat; lia|].
  apply Forall_app. split; [exact F|apply Forall_repeat, Pz].
Qed.

Lemma tc_limbs_wf tc : 0 <= tc < 2 ^ 64 ->
  wf_list 2 (tc_limbs tc) /\ Forall (fun v => v < 2 ^ 32) (tc_limbs tc).
Proof.
  intros Htc. change (2 ^ 64) with two64 in Htc. change (2 ^ 32) with two32. unfold tc_limbs, wf_list.
  pose proof (u32_div_u64 tc Htc) as B1. pose proof (u32_mod tc) as B2.
  split; [split; [reflexivity|]|]; repeat constructor; first [apply canon_u32; assumption|apply B1|apply B2].
Qed.

Section Complete.
  Variable H : list Z -> list Z.
  Hypothesis Hwf : hash_wf H.
  Variable x : ProverIn.
  Hypothesis Wx : wf_x x.
  Hypothesis Hx : honest H x.

  Lemma fill_honest : fill x = Ok (filled x).
  Proof.
    destruct (fill_cases x) as [[_ E]|[R _]]; [exact E|exfalso].
    pose proof (hx_depth H x Hx) as D. pose proof (hx_positions_len H x Hx) as L.
    pose proof (hx_positions H x Hx) as P. unfold fill_rejects, zlen in R.
    destruct R as [R|[R|R]]; [lia|lia|]. apply Exists_exists in R. destruct R as (q & Iq & Hq).
    rewrite Forall_forall in P. specialize (P q Iq). lia.
  Qed.

  Lemma filled_wf : wf_in (filled x).
  Proof.
    pose proof (hx_depth H x Hx) as D. pose proof (hx_positions_len H x Hx) as L.
    destruct (tc_limbs_wf _ (wx_transfer_count x Wx)) as [Wtc _].
    (* the fields copied from [x] are well-formed because [x] is; depth, flag and the two padded vectors remain *)
    constructor; li_simpl; first [apply Wx|apply canon_u32, Wx|exact Wtc|idtac].
    - unfold zlen, canon, p. lia.
    - destruct (x_is_dummy x); [apply canon_0|apply canon_1].
    - exact (pad_spec wf_level _ _ D (wx_siblings x Wx) zero_level_wf).
    - apply (pad_spec canon 0); [lia| |apply canon_0].
      eapply Forall_impl; [|exact (hx_positions H x Hx)]. cbv beta. intros q Hq. unfold canon, p. lia.
  Qed.

  Lemma filled_is_dummy : is_dummy_stmt (filled x) = x_is_dummy x.
  Proof.
    apply eq_true_iff_eq. rewrite x_is_dummy_spec. apply is_dummy_stmt_spec, (wx_block_hash x Wx).
  Qed.

  Lemma filled_ok : leaf_ok H (filled x).
  Proof.
    pose proof (hx_depth H x Hx) as D. pose proof (hx_positions_len H x Hx) as L.
    pose proof (hx_positions H x Hx) as P.
    destruct (tc_limbs_wf _ (wx_transfer_count x Wx)) as [_ Rtc].
    unfold leaf_ok. rewrite filled_is_dummy.
    split; [|split; [|split; [|split; [|split]]]].
    - li_simpl. pose proof (wx_asset x Wx). pose proof (wx_out1 x Wx). pose proof (wx_out2 x Wx).
      pose proof (wx_input_amount x Wx). pose proof (wx_block_number x Wx). tauto.
    - li_simpl. split; [exact (hx_fee H x Hx)|exact (hx_rule H x Hx)].
    - li_simpl. split; [unfold zlen; change MERKLE_MAX_DEPTH with 16; lia|].
      apply (pad_spec _ 0); [lia| |lia]. eapply Forall_impl; [|exact P]. cbv beta. intros q Hq. lia.
    - li_simpl. reflexivity.
    - li_simpl. rewrite <- (hx_account H x Hx). tauto.
    - intros Dm. destruct (hx_bindings H x Hx) as (N & T & B); [rewrite <- x_is_dummy_spec; congruence|].
      unfold merkle_root, leaf_preimage, leaf_levels, header_preimage. li_simpl.
      unfold pad_levels, pad_positions, zlen. rewrite Nat2Z.id, firstn_combine_app by exact L.
      split; [exact N|]. split; [exact B|]. split; [reflexivity|]. symmetry. exact T.
  Qed.

  Theorem complete :
    exists i, fill x = Ok i /\ hon H (leaf_circuit i) = Some (layout21 x) /\ prove_outcome H x = 1 :: layout21 x.
  Proof.
    exists (filled x).
    assert (E : hon H (leaf_circuit (filled x)) = Some (layout21 x)).
    { change (layout21 x) with (leaf_public_inputs (filled x)). apply (hon_leaf_iff H Hwf (filled x) filled_wf). exact filled_ok. }
    split; [exact fill_honest|]. split; [exact E|].
    unfold prove_outcome. rewrite fill_honest, E. reflexivity.
  Qed.
End Complete.

Lemma layout21_length x : wf_x x -> length (layout21 x) = 21%nat.
Proof.
  intros W. unfold layout21. rewrite !app_length.
  rewrite (proj1 (wx_nullifier x W)), (proj1 (wx_exit1 x W)), (proj1 (wx_exit2 x W)),
    (proj1 (wx_block_hash x W)). reflexivity.
Qed.

Lemma digest_at_mid (pre d post : list Z) : Forall canon d -> length d = 4%nat -> digest_at (pre ++ d ++ post) (length pre).
Proof.
  intros F L k Hk. unfold at_. rewrite app_nth2_plus, app_nth1 by lia. apply canon_nth, F.
Qed.

Theorem parse_back x : wf_x x ->
  parse_leaf_u64 (layout21 x) =
  Ok (mkLeafPI (x_asset x) (x_out1 x) (x_out2 x) (x_fee x) (x_nullifier x) (x_exit1 x) (x_exit2 x)
               (x_block_hash x) (x_block_number x)).
Proof.
  intros W. apply leaf_accept_iff. unfold layout21.
  destruct (wx_nullifier x W) as [Ln Fn], (wx_exit1 x W) as [L1 F1], (wx_exit2 x W) as [L2 F2],
    (wx_block_hash x W) as [Lb Fb].
  destruct (length4_inv _ Ln) as (n0 & n1 & n2 & n3 & En), (length4_inv _ L1) as (e0 & e1 & e2 & e3 & E1),
    (length4_inv _ L2) as (g0 & g1 & g2 & g3 & E2), (length4_inv _ Lb) as (b0 & b1 & b2 & b3 & Eb).
  rewrite En, E1, E2, Eb in *. split; [|reflexivity].
  refine (conj eq_refl (conj (wx_asset x W) (conj (wx_out1 x W) (conj (wx_out2 x W) (conj (wx_fee x W)
            (conj _ (conj _ (conj _ (conj _ (wx_block_number x W)))))))))).
  - exact (digest_at_mid [_; _; _; _] _ _ Fn eq_refl).
  - exact (digest_at_mid [_; _; _; _; _; _; _; _] _ _ F1 eq_refl).
  - exact (digest_at_mid [_; _; _; _; _; _; _; _; _; _; _; _] _ _ F2 eq_refl).
  - exact (digest_at_mid [_; _; _; _; _; _; _; _; _; _; _; _; _; _; _; _] _ _ Fb eq_refl).
Qed.

(* inputs built over the oracle H0 of LeafProofs; [ex_x] below is the honest one, of depth 1 *)
Definition ex_x_build (out1 out2 fee : Z) (positions : list Z) (nsibs : nat) : ProverIn :=
  let secret := [11; 12; 13; 14] in
  let tc := 5 * two32 + 7 in
  let asset := 0 in
  let input := 50 in
  let account := H0 (H0 (UNSPENDABLE_SALT_FELTS ++ secret)) in
  let nullifier := H0 (H0 (NULLIFIER_SALT_FELTS ++ secret ++ tc_limbs tc)) in
  let sibs := repeat ex_level0 nsibs in
  let root := fold_insert H0 (H0 (account ++ tc_limbs tc ++ [asset; input])) (combine sibs positions) in
  let parent := [21; 22; 23; 24] in
  let number := 1000 in
  let state := [31; 32; 33; 34] in
  let extr := [41; 42; 43; 44] in
  let digest := repeat 7 28 in
  let block_hash := H0 (parent ++ [number] ++ state ++ extr ++ root ++ digest) in
  mkProverIn asset out1 out2 fee nullifier [51; 52; 53; 54] [61; 62; 63; 64] block_hash number
             secret tc account parent state extr digest input root sibs positions.

Definition ex_x : ProverIn := ex_x_build 40 9 10 [2] 1.
Definition ex_x_depth0 : ProverIn := ex_x_build 40 9 10 [] 0.
Definition ex_x_bad_rule : ProverIn := ex_x_build 45 9 10 [2] 1.
Definition ex_x_deep : ProverIn := ex_x_build 40 9 10 (repeat 0 17) 17.
Definition ex_x_mismatch : ProverIn := ex_x_build 40 9 10 [2; 0] 1.
Definition ex_x_pos4 : ProverIn := ex_x_build 40 9 10 [4] 1.

Lemma ex_x_wf : wf_x ex_x.
Proof. apply wf_xb_sound. vm_compute. reflexivity. Qed.

Lemma ex_x_honest : honest H0 ex_x.
Proof.
  constructor.
  - cbn. lia.
  - reflexivity.
  - repeat constructor; lia.
  - discriminate.
  - vm_compute. discriminate.
  - reflexivity.
  - intros _. repeat split.
Qed.
