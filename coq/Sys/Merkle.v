(* C27 - native 4-ary Merkle proofs (common/src/zk_merkle.rs) and their circuit-side form
   (wormhole/circuit/src/zk_merkle_proof.rs).  Executable model only; proofs in MerkleProofs.v.

   Data: a 32-byte hash ([Hash256 = [u8; 32]]) is modelled by its four little-endian u64 limbs
   ([u64::from_le_bytes] of bytes 8i..8i+8) - the form in which the code itself reads it in
   [is_canonical_hash] and in the compact 8-bytes-per-felt encoding of [hash_bytes_compact].
   Everything that depends on the BYTES of a hash (the [Ord] of [u8; 32] used by [sort]) goes through
   [bytes_of_digest], the explicit little-endian byte expansion, so the order is the byte-lexicographic
   one and NOT the numeric order of the limbs.
   The Poseidon2 sponge is the parameter [H] (16 felts -> 4 felts, canonical representatives); it stands for
   [qp_poseidon_core::hash_to_bytes] read back as limbs, which is the same function as the in-circuit
   [hash_n_to_hash_no_pad_p2] (checked on every correspondence case: the driver answers H with the plonky2
   [Poseidon2Hash::hash_no_pad], the implementation hashes with qp_poseidon_core).
   [leaf_index] of [ZkMerkleProof] is informational (never read by any function) and is not modelled. *)
From Coq Require Import ZArith List Bool.
From V.Base Require Import Common.
From V.Generated Require Import Constants.
From V.Circ Require Import Field Core Prims Gadgets Leaf.
Import ListNotations.
Open Scope Z_scope.

Definition PANIC : Z := -1.
Definition ILL_TYPED : Z := 9.      (* the argument is outside the Rust type (e.g. not three siblings) *)

Notation digest := (list Z) (only parsing).

(* ---------------------------------------------------------------- bytes, order, equality *)

(* uN::to_le_bytes, n bytes *)
Fixpoint to_le (n : nat) (x : Z) : list Z :=
  match n with
  | O => []
  | S k => x mod 256 :: to_le k (x / 256)
  end.
Definition bytes_of_limb (v : Z) : list Z := to_le 8 v.
Definition bytes_of_digest (h : digest) : list Z := flat_map bytes_of_limb h.

(* Ord on [u8; 32] (and on slices): lexicographic on bytes *)
Fixpoint lex_leb (a b : list Z) : bool :=
  match a, b with
  | [], _ => true
  | _ :: _, [] => false
  | x :: a', y :: b' => if x <? y then true else if y <? x then false else lex_leb a' b'
  end.
Definition hash_leb (a b : digest) : bool := lex_leb (bytes_of_digest a) (bytes_of_digest b).
(* strictly below *)
Definition hash_ltb (a b : digest) : bool := negb (hash_leb b a).
(* == on [u8; 32] *)
Definition hash_eqb (a b : digest) : bool := list_eqb a b.

(* [T; 4]::sort(): the sorted arrangement (the order is total and antisymmetric on hashes, so it is unique;
   computed here by insertion) *)
Fixpoint insert_sorted (x : digest) (l : list digest) : list digest :=
  match l with
  | [] => [x]
  | y :: r => if hash_leb x y then x :: y :: r else y :: insert_sorted x r
  end.
Definition sort_hashes (l : list digest) : list digest := fold_right insert_sorted [] l.

(* zk_merkle.rs:53 is_canonical_hash: every limb < GOLDILOCKS_MODULUS *)
Definition is_canonical_hash (h : digest) : bool := forallb (fun v => v <? MERKLE_GOLDILOCKS_MODULUS) h.

(* ---------------------------------------------------------------- node hashing *)

(* zk_merkle.rs:342 hash_node_presorted -> serialization::hash_bytes_compact on the 128 concatenated bytes:
   length 128 <= MAX_SERIALIZED_BYTES and a multiple of 8 (cannot fail), every limb must be canonical
   (qp_poseidon_core try_canonical_limb), then the sponge over the 16 limbs *)
Definition hash_node_presorted (H : list Z -> list Z) (children : list digest) : res digest :=
  if forallb is_canonical_hash children then Ok (H (concat children)) else Err 3.
(* zk_merkle.rs:367 hash_node: sort, then the same *)
Definition hash_node (H : list Z -> list Z) (children : list digest) : res digest :=
  hash_node_presorted H (sort_hashes children).

(* zk_merkle.rs:296 insert_at_position *)
Definition insert_at_position (cur : digest) (sibs : list digest) (pos : Z) : res (list digest) :=
  match sibs with
  | [s0; s1; s2] =>
      if pos =? 0 then Ok [cur; s0; s1; s2]
      else if pos =? 1 then Ok [s0; cur; s1; s2]
      else if pos =? 2 then Ok [s0; s1; cur; s2]
      else if pos =? 3 then Ok [s0; s1; s2; cur]
      else Err 1
  | _ => Err ILL_TYPED
  end.

(* ---------------------------------------------------------------- ZkMerkleProof *)

Record proof := mkProof {
  pf_siblings : list (list digest);     (* Vec<[Hash256; 3]> *)
  pf_positions : list Z;                (* Vec<u8> *)
  pf_leaf : digest;
  pf_root : digest
}.

(* the loop of verify_with_positions (zk_merkle.rs:187): None = `return false` from inside the loop *)
Fixpoint walk (H : list Z -> list Z) (cur : digest) (levels : list (list digest * Z)) : option digest :=
  match levels with
  | [] => Some cur
  | (sibs, pos) :: r =>
      match insert_at_position cur sibs pos with
      | Err _ => None
      | Ok children =>
          match hash_node_presorted H children with
          | Err _ => None
          | Ok parent => walk H parent r
          end
      end
  end.

(* zk_merkle.rs:164 *)
Definition verify_with_positions (H : list Z -> list Z) (pr : proof) : bool :=
  if MERKLE_MAX_DEPTH <? zlen (pf_siblings pr) then false
  else if negb (zlen (pf_siblings pr) =? zlen (pf_positions pr)) then false
  else if negb (is_canonical_hash (pf_leaf pr)) then false
  else if negb (forallb (forallb is_canonical_hash) (pf_siblings pr)) then false
  else match walk H (pf_leaf pr) (combine (pf_siblings pr) (pf_positions pr)) with
       | Some cur => hash_eqb cur (pf_root pr)
       | None => false
       end.
(* zk_merkle.rs:152 *)
Definition verify (H : list Z -> list Z) (pr : proof) : bool := verify_with_positions H pr.

(* iter().position(pred) *)
Fixpoint find_index (f : digest -> bool) (l : list digest) : option nat :=
  match l with
  | [] => None
  | x :: r => if f x then Some O else match find_index f r with Some n => Some (S n) | None => None end
  end.
(* the elements at indices <> n, in order *)
Fixpoint remove_nth (n : nat) (l : list digest) : list digest :=
  match l with
  | [] => []
  | x :: r => match n with O => r | S m => x :: remove_nth m r end
  end.

(* the loop of from_unsorted (zk_merkle.rs:241): (sorted siblings, positions, hash reached) *)
Fixpoint fu_loop (H : list Z -> list Z) (cur : digest) (levels : list (list digest))
  : res (list (list digest) * list Z * digest) :=
  match levels with
  | [] => Ok ([], [], cur)
  | lv :: r =>
      let all_four := sort_hashes (cur :: lv) in
      match find_index (hash_eqb cur) all_four with
      | None => Err PANIC                                     (* .position(..).unwrap() *)
      | Some pos =>
          match hash_node_presorted H all_four with
          | Err c => Err c
          | Ok parent =>
              match fu_loop H parent r with
              | Err c => Err c
              | Ok (ss, ps, top) => Ok (remove_nth pos all_four :: ss, Z.of_nat pos :: ps, top)
              end
          end
      end
  end.

(* zk_merkle.rs:218 *)
Definition from_unsorted (H : list Z -> list Z) (unsorted : list (list digest)) (leaf root : digest) : res proof :=
  _ <-? guard (zlen unsorted <=? MERKLE_MAX_DEPTH) 1 ;;
  _ <-? guard (is_canonical_hash leaf) 2 ;;
  _ <-? guard (forallb (forallb is_canonical_hash) unsorted) 3 ;;
  match fu_loop H leaf unsorted with
  | Err c => Err c
  | Ok (ss, ps, _) => Ok (mkProof ss ps leaf root)
  end.

(* the root of the tree path through unsorted child sets: fold of the order-independent hash_node
   (how the chain / the tests build a root) *)
Fixpoint compute_root (H : list Z -> list Z) (cur : digest) (levels : list (list digest)) : res digest :=
  match levels with
  | [] => Ok cur
  | lv :: r => parent <-? hash_node H (cur :: lv) ;; compute_root H parent r
  end.

(* ---------------------------------------------------------------- the circuit side *)

(* the part of ZkMerkleProofData::circuit (zk_merkle_proof.rs:506-625; Leaf.v zk_merkle_circuit) that consumes
   the tree path: depth bound, 16-level walk, gated root binding.  Properties/C27.v (C27_leaf_circuit_contains_path) shows
   that zk_merkle_circuit is literally [.. Hash leaf_preimage (fun leaf_hash => path_circuit ..)]. *)
Definition path_circuit (depth : Z) (leaf_hash : list Z) (sibs : list (list (list Z))) (positions : list Z)
           (root : list Z) (is_not_dummy : Z) : Circ unit :=
  _ <- enforce_target_less_than_const depth (MERKLE_MAX_DEPTH + 1) n_log_depth ;;
  root' <- merkle_walk 0 depth leaf_hash (combine sibs positions) ;;
  assert_gated root' root is_not_dummy (Ret tt).

(* ZkMerkleProofData::fill_targets (zk_merkle_proof.rs:628): the path targets of all MAX_DEPTH levels, unused
   levels padded with the zero hash and position 0; None = bail! *)
Definition zero_level : list (list Z) := [[0; 0; 0; 0]; [0; 0; 0; 0]; [0; 0; 0; 0]].
Definition fill_path (sibs : list (list (list Z))) (positions : list Z) : option (list (list (list Z)) * list Z) :=
  if MERKLE_MAX_DEPTH <? zlen sibs then None
  else if negb (zlen positions =? zlen sibs) then None
  else if negb (forallb (fun q => q <=? 3) positions) then None
  else let pad := (Z.to_nat MERKLE_MAX_DEPTH - length sibs)%nat in
       Some (sibs ++ repeat zero_level pad, positions ++ repeat 0 pad).

(* ZkMerkleProofData::new (depth = siblings.len()) + fill_targets + the path constraints, for a real
   (not dummy) statement whose leaf hashes to [leaf_hash] *)
Definition circuit_accepts_path (H : list Z -> list Z) (leaf_hash : list Z) (sibs : list (list (list Z)))
           (positions : list Z) (root : list Z) : bool :=
  match fill_path sibs positions with
  | None => false
  | Some (s, ps) =>
      match hon H (path_circuit (zlen sibs) leaf_hash s ps root 1) with
      | Some _ => true
      | None => false
      end
  end.

(* serialization::bytes_to_digest followed by the witness assignment: the field element of a u64 limb *)
Definition felt_of_limb (v : Z) : Z := v mod p.

(* ---------------------------------------------------------------- correspondence interface *)

Definition seg (args : list (list Z)) (i : nat) : list Z := nth i args [].
Definition digests_of (flat : list Z) : list digest := chunks 4 flat.
Definition levels_of (flat : list Z) : list (list digest) := chunks 3 (digests_of flat).

Definition b2z' (b : bool) : Z := if b then 1 else 0.
Definition enc_res {A} (enc : A -> list Z) (r : res A) : list Z :=
  match r with
  | Ok a => 1 :: enc a
  | Err c => if c =? PANIC then [PANIC] else [0]
  end.
Definition enc_proof (pr : proof) : list Z :=
  zlen (pf_siblings pr) :: pf_positions pr ++ concat (concat (pf_siblings pr)) ++ pf_leaf pr ++ pf_root pr.

(* segments:
   2701 verify / verify_with_positions   0: leaf  1: root  2: positions  3: siblings (12 limbs per level)
   2702 from_unsorted                    0: leaf  1: root  2: unsorted siblings
        out: the proof, its verify(), the hash_node-folded root, verify() against that root
   2703 insert_at_position               0: current  1: three siblings  2: [position]
   2704 hash_node_presorted, hash_node   0: four children
   2705 native verify vs circuit path    0: leaf hash  1: root felts  2: positions  3: sibling felts
        (ZkMerkleProofData::new of the same byte proof, canonical values of the stored field elements)
   2706 the same on a byte proof with a non-canonical alias limb: 0..3 raw limbs of the byte proof,
        4: root felts 5: sibling felts as stored by ZkMerkleProofData::new *)
Definition dispatch_h (H : list Z -> list Z) (fid : Z) (args : list (list Z)) : list Z :=
  if fid =? 2701 then
    let pr := mkProof (levels_of (seg args 3)) (seg args 2) (seg args 0) (seg args 1) in
    [b2z' (verify H pr); b2z' (verify_with_positions H pr)]
  else if fid =? 2702 then
    let lv := levels_of (seg args 2) in
    match from_unsorted H lv (seg args 0) (seg args 1) with
    | Err c => if c =? PANIC then [PANIC] else [0]
    | Ok pr =>
        1 :: enc_proof pr ++ [b2z' (verify H pr)] ++
        match compute_root H (seg args 0) lv with
        | Ok r2 => 1 :: r2 ++ [b2z' (verify H (mkProof (pf_siblings pr) (pf_positions pr) (pf_leaf pr) r2))]
        | Err _ => [0]
        end
    end
  else if fid =? 2703 then
    enc_res (fun l => concat l) (insert_at_position (seg args 0) (digests_of (seg args 1)) (nth 0 (seg args 2) 0))
  else if fid =? 2704 then
    enc_res (fun d => d) (hash_node_presorted H (digests_of (seg args 0))) ++
    enc_res (fun d => d) (hash_node H (digests_of (seg args 0)))
  else if fid =? 2705 then
    [b2z' (circuit_accepts_path H (seg args 0) (levels_of (seg args 3)) (seg args 2) (seg args 1))]
  else if fid =? 2706 then
    let pr := mkProof (levels_of (seg args 3)) (seg args 2) (seg args 0) (seg args 1) in
    [b2z' (verify H pr);
     b2z' (list_eqb (map felt_of_limb (seg args 1)) (seg args 4) && list_eqb (map felt_of_limb (seg args 3)) (seg args 5));
     b2z' (circuit_accepts_path H (seg args 0) (levels_of (seg args 5)) (seg args 2) (seg args 4))]
  else [-2].
