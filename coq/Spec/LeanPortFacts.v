(* Laws of the specification functions of Spec/LeanPort.v, so that the proofs about the wrapper circuits
   (Circ/PrivateBatchProofs.v, Circ/PublicBatchProofs.v, Circ/TwoLayer.v) and about the preflight need not unfold them.

   Grouping goes through one normal form: [groupExits xs = slots_spec xs [] xs], where slot k of
   [slots_spec] is decided by looking at the keys BEFORE k only (this is also how the circuit computes
   it).  [priv_compat] is read as the proposition [compat_prop]; [priv_output] as four segments
   ([priv_output_split]) of known lengths.  Before these come the laws of [region], the slice by which both
   wrappers' layouts are read. *)
From Coq Require Import ZArith Lia List Bool Permutation.
From V.Base Require Import Common.
From V.Circ Require Import Field Prims GadgetsProofs PrivateBatch SortNet Sorting.
From V.Spec Require Import LeanPort.
Import ListNotations.
Open Scope Z_scope.

Lemma length_concat_const {A} k (ls : list (list A)) :
  Forall (fun l => length l = k) ls -> length (concat ls) = (k * length ls)%nat.
Proof. induction 1 as [|l ls L F IH]; cbn [concat length]; [lia|]. rewrite app_length, IH, L. lia. Qed.

Lemma In_firstn {A} (d : A) l k x :
  In x (firstn k l) <-> exists j, (j < k)%nat /\ (j < length l)%nat /\ nth j l d = x.
Proof.
  split.
  - intros I. apply (In_nth _ _ d) in I. destruct I as (j & L & E). rewrite firstn_length in L.
    exists j. rewrite nth_firstn_lt in E by lia. repeat split; [lia|lia|exact E].
  - intros (j & Lk & Ll & <-). rewrite <- (nth_firstn_lt d k) by exact Lk.
    apply nth_In. rewrite firstn_length. lia.
Qed.

Lemma perm_filter {A} (f : A -> bool) l l' : Permutation l l' -> Permutation (filter f l) (filter f l').
Proof.
  induction 1 as [|x l l' P IH|x y l|l l' l'' P1 IH1 P2 IH2]; cbn [filter].
  - constructor.
  - destruct (f x); [apply perm_skip|]; exact IH.
  - destruct (f x), (f y); try apply perm_swap; reflexivity.
  - etransitivity; eassumption.
Qed.

(* [region]: slices of a list of public inputs, and of concatenations *)
Lemma region_length (l : list Z) s len : 0 <= s -> 0 <= len -> s + len <= zlen l ->
  length (region l s len) = Z.to_nat len.
Proof. intros Hs Hl Hb. unfold region, zlen in *. rewrite firstn_length, skipn_length. lia. Qed.
Lemma region_zlen (l : list Z) s len : 0 <= s -> 0 <= len -> s + len <= zlen l -> zlen (region l s len) = len.
Proof. intros Hs Hl Hb. unfold zlen at 1. rewrite region_length by assumption. lia. Qed.
Lemma region_canon (l : list Z) s len : Forall canon l -> Forall canon (region l s len).
Proof. intros F. unfold region. apply Forall_firstn, Forall_skipn, F. Qed.
Lemma region_all (l : list Z) : region l 0 (zlen l) = l.
Proof. unfold region, zlen. rewrite Nat2Z.id. cbn [Z.to_nat skipn]. apply firstn_all. Qed.
Lemma nth_region (l : list Z) s len i : (i < Z.to_nat len)%nat ->
  nth i (region l s len) 0 = nth (Z.to_nat s + i) l 0.
Proof. intros Hi. unfold region. rewrite nth_firstn_lt by exact Hi. apply nth_skipn. Qed.
Lemma region_app_skip (a b : list Z) s len : 0 <= s -> region (a ++ b) (zlen a + s) len = region b s len.
Proof.
  intros Hs. unfold region, zlen. rewrite skipn_app.
  replace (Z.to_nat (Z.of_nat (length a) + s)) with (length a + Z.to_nat s)%nat by lia.
  rewrite skipn_all2 by lia. cbn [app]. replace (length a + Z.to_nat s - length a)%nat with (Z.to_nat s) by lia.
  reflexivity.
Qed.
Lemma region_app_take (b c : list Z) s len : 0 <= s -> 0 <= len -> s + len <= zlen b ->
  region (b ++ c) s len = region b s len.
Proof.
  intros Hs Hl Hb. unfold region, zlen in *. rewrite skipn_app, firstn_app.
  replace (Z.to_nat s - length b)%nat with 0%nat by lia. cbn [skipn].
  rewrite skipn_length. replace (Z.to_nat len - (length b - Z.to_nat s))%nat with 0%nat by lia.
  cbn [firstn]. apply app_nil_r.
Qed.
(* a slice of the middle one of three segments; the whole of it; the last one of two *)
Lemma region_app_mid_sub (a b c : list Z) s len : 0 <= s -> 0 <= len -> s + len <= zlen b ->
  region (a ++ b ++ c) (zlen a + s) len = region b s len.
Proof. intros Hs Hl Hb. rewrite region_app_skip, region_app_take by assumption. reflexivity. Qed.
Lemma region_app_mid (a b c : list Z) : region (a ++ b ++ c) (zlen a) (zlen b) = b.
Proof. unfold region, zlen. rewrite !Nat2Z.id. apply firstn_skipn_mid; reflexivity. Qed.
Lemma region_app_last (a b : list Z) : region (a ++ b) (zlen a) (zlen b) = b.
Proof. rewrite <- (Z.add_0_r (zlen a)), region_app_skip by lia. apply region_all. Qed.

Lemma zlen_concat_chunks (k : Z) (ls : list (list Z)) : Forall (fun l => zlen l = k) ls ->
  zlen (concat ls) = k * zlen ls.
Proof.
  induction 1 as [|l ls Hl F IH]; cbn [concat]; [unfold zlen; cbn [length]; lia|].
  cbv beta in Hl. rewrite zlen_app, zlen_cons, IH, Hl. lia.
Qed.
Lemma region_concat_chunk (k : Z) (ls : list (list Z)) : 0 <= k -> Forall (fun l => zlen l = k) ls ->
  forall i, (i < length ls)%nat -> region (concat ls) (Z.of_nat i * k) k = nth i ls [].
Proof.
  intros Hk F. induction F as [|l ls Hl F IH]; intros i Hi; cbn [length] in Hi; [lia|].
  cbv beta in Hl. cbn [concat]. destruct i as [|i].
  - cbn [nth]. rewrite Z.mul_0_l. rewrite region_app_take by lia. rewrite <- Hl. apply region_all.
  - cbn [nth]. replace (Z.of_nat (S i) * k) with (zlen l + Z.of_nat i * k) by lia.
    rewrite region_app_skip by lia. apply IH. lia.
Qed.

Definition good4 (d : list Z) : Prop := length d = 4%nat /\ Forall canon d.

Lemma good4_zero4 : good4 zero4.
Proof. split; [reflexivity|]. repeat constructor; apply canon_0. Qed.
Lemma good4_pi4 pis off : Forall canon pis -> (Z.to_nat off + 4 <= length pis)%nat -> good4 (pi4 pis off).
Proof.
  intros F L. unfold pi4. split.
  - rewrite firstn_length, skipn_length. lia.
  - apply Forall_firstn, Forall_skipn, F.
Qed.
Lemma good4_concat ds : Forall good4 ds -> length (concat ds) = (4 * length ds)%nat /\ Forall canon (concat ds).
Proof.
  intros G. split.
  - apply length_concat_const. eapply Forall_impl; [|exact G]. intros d [L _]. exact L.
  - apply Forall_concat. eapply Forall_impl; [|exact G]. intros d [_ C]. exact C.
Qed.

Lemma dmem_In k l : dmem k l = true <-> In k l.
Proof.
  unfold dmem. rewrite existsb_exists. split.
  - intros (x & I & E). apply list_eqb_spec in E. subst x. exact I.
  - intros I. exists k. split; [exact I|apply list_eqb_refl].
Qed.
Lemma dmem_false k l : dmem k l = false <-> ~ In k l.
Proof. rewrite <- dmem_In. symmetry. apply not_true_iff_false. Qed.
Lemma dmem_snoc k l e : dmem k (l ++ [e]) = dmem k l || list_eqb k e.
Proof. unfold dmem. rewrite existsb_app. cbn [existsb]. rewrite orb_false_r. reflexivity. Qed.

Lemma distinct_digests_NoDup l : distinct_digests l = true <-> NoDup l.
Proof.
  induction l as [|d r IH]; cbn [distinct_digests].
  - split; [constructor|reflexivity].
  - rewrite andb_true_iff, negb_true_iff, dmem_false, IH. split.
    + intros [N D]. constructor; assumption.
    + intros D. inversion D; subst. split; assumption.
Qed.

Lemma is_real_pb_iff q : is_real_pb q = true <-> lf_bh q <> zero4.
Proof. unfold is_real_pb, is_dummy_pb. rewrite negb_true_iff. apply list_eqb_false. Qed.
Lemma is_real_pb_of_dummy q b : is_dummy_pb q = b -> is_real_pb q = negb b.
Proof. intros <-. reflexivity. Qed.

(* a well-formed child statement, field by field *)
Record leaf_fields (q : list Z) : Prop := {
  lw_bh : good4 (lf_bh q);
  lw_null : good4 (lf_null q);
  lw_exit1 : good4 (lf_exit1 q);
  lw_exit2 : good4 (lf_exit2 q);
  lw_asset : canon (lf_asset q);
  lw_fee : canon (lf_fee q);
  lw_bn : canon (lf_bn q);
  lw_out1 : 0 <= lf_out1 q < two32;
  lw_out2 : 0 <= lf_out2 q < two32 }.

Lemma leaf_wf_fields q : leaf_wf q -> leaf_fields q.
Proof.
  intros (L & F & O1 & O2).
  assert (D : forall off, (Z.to_nat off + 4 <= 21)%nat -> good4 (pi4 q off)).
  { intros off Lo. apply good4_pi4; [exact F|rewrite L; exact Lo]. }
  assert (C : forall off, canon (pi1 q off)) by (intros off; apply canon_nth, F).
  constructor; try (apply D; cbn; lia); try apply C.
  - split; [apply C|exact O1].
  - split; [apply C|exact O2].
Qed.
Lemma leaf_wf_fields_all leaves : Forall leaf_wf leaves -> Forall leaf_fields leaves.
Proof. apply Forall_impl. exact leaf_wf_fields. Qed.

(* a (key, amount) pair as the grouping receives it *)
Definition pair_ok (s : digest * Z) : Prop := good4 (fst s) /\ 0 <= snd s < two32.

Lemma matchSum_app k xs ys : matchSum k (xs ++ ys) = matchSum k xs + matchSum k ys.
Proof. induction xs as [|[k' a'] xs IH]; cbn [app matchSum]; [reflexivity|]. rewrite IH. lia. Qed.
Lemma matchSum_notin k xs : ~ In k (map fst xs) -> matchSum k xs = 0.
Proof.
  induction xs as [|[k' a'] xs IH]; cbn [map fst In matchSum]; intros N; [reflexivity|].
  rewrite IH by tauto. replace (list_eqb k' k) with false; [reflexivity|].
  symmetry. apply list_eqb_false. tauto.
Qed.
Lemma matchSum_lt_all xs : (forall e a, In (e, a) xs -> matchSum e xs < two32) -> forall k, matchSum k xs < two32.
Proof.
  intros A k. destruct (dmem k (map fst xs)) eqn:I.
  - apply dmem_In, in_map_iff in I. destruct I as ([e a] & <- & I). exact (A e a I).
  - rewrite matchSum_notin by (apply dmem_false, I). reflexivity.
Qed.
Lemma perm_matchSum k xs xs' : Permutation xs xs' -> matchSum k xs = matchSum k xs'.
Proof.
  induction 1 as [|[k1 a1] l l' P IH|[k1 a1] [k2 a2] l|l l' l'' P1 IH1 P2 IH2]; cbn [matchSum]; lia.
Qed.
Lemma matchSum_bound k xs : Forall pair_ok xs -> 0 <= matchSum k xs <= zlen xs * two32.
Proof.
  induction 1 as [|[k' a'] xs [_ B] F IH]; cbn [matchSum]; [cbn; lia|].
  rewrite zlen_cons. cbn [snd] in B. destruct (list_eqb k' k); lia.
Qed.

Definition masked2 (q : list Z) : list (digest * Z) :=
  [if is_dummy_pb q then (zero4, 0) else (lf_exit1 q, lf_out1 q);
   if is_dummy_pb q then (zero4, 0) else (lf_exit2 q, lf_out2 q)].

Lemma maskedChildPairs_flat_map leaves : maskedChildPairs leaves = flat_map masked2 leaves.
Proof. induction leaves as [|q r IH]; cbn [maskedChildPairs flat_map]; [reflexivity|]. rewrite IH. reflexivity. Qed.

Lemma maskedChildPairs_length leaves : length (maskedChildPairs leaves) = (2 * length leaves)%nat.
Proof. induction leaves as [|q lr IH]; cbn [maskedChildPairs length]; [reflexivity|]. rewrite IH. lia. Qed.

Lemma maskedChildPairs_ok leaves : Forall leaf_fields leaves -> Forall pair_ok (maskedChildPairs leaves).
Proof.
  intros F. rewrite maskedChildPairs_flat_map. apply Forall_flat_map. eapply Forall_impl; [|exact F].
  intros q W. assert (P0 : pair_ok (zero4, 0)) by (split; [apply good4_zero4|cbn [snd]; unfold two32; lia]).
  unfold masked2. destruct (is_dummy_pb q); (constructor; [|constructor; [|constructor]]);
    try exact P0; split; apply W.
Qed.

Lemma perm_masked l l' : Permutation l l' -> Permutation (maskedChildPairs l) (maskedChildPairs l').
Proof. intros P. rewrite !maskedChildPairs_flat_map. apply Permutation_flat_map, P. Qed.

Lemma masked_nth leaves : forall i d, (i < length leaves)%nat ->
  nth (2 * i) (maskedChildPairs leaves) d = nth 0 (masked2 (nth i leaves [])) d /\
  nth (2 * i + 1) (maskedChildPairs leaves) d = nth 1 (masked2 (nth i leaves [])) d.
Proof.
  induction leaves as [|q r IH]; intros i d L; cbn [length] in L; [lia|].
  destruct i as [|i]; cbn [maskedChildPairs].
  - split; reflexivity.
  - replace (2 * S i)%nat with (S (S (2 * i))) by lia. replace (S (S (2 * i)) + 1)%nat with (S (S (2 * i + 1))) by lia.
    cbn [nth]. apply IH. lia.
Qed.

Lemma inputExitTotal_app l1 l2 : inputExitTotal (l1 ++ l2) = inputExitTotal l1 + inputExitTotal l2.
Proof. induction l1 as [|q r IH]; cbn [app inputExitTotal]; [reflexivity|]. rewrite IH. lia. Qed.
Lemma inputExitTotal_bound leaves : Forall leaf_fields leaves ->
  0 <= inputExitTotal leaves <= zlen leaves * (2 * two32 - 2).
Proof.
  induction 1 as [|q r Wq F IH]; cbn [inputExitTotal]; [cbn; lia|]. rewrite zlen_cons.
  pose proof (lw_out1 q Wq). pose proof (lw_out2 q Wq). destruct (is_dummy_pb q); lia.
Qed.
Lemma inputExitTotal_dummies leaves : existsb is_real_pb leaves = false -> inputExitTotal leaves = 0.
Proof.
  induction leaves as [|q r IH]; cbn [existsb inputExitTotal]; [reflexivity|].
  intros E. apply orb_false_iff in E. destruct E as [E1 E2]. unfold is_real_pb in E1.
  apply negb_false_iff in E1. rewrite E1, IH by exact E2. reflexivity.
Qed.

Definition slot_spec (all : list (digest * Z)) (earlier : list digest) (e : digest) : Z * digest :=
  if dmem e earlier then (0, zero4) else (matchSum e all, e).

Fixpoint slots_spec (all : list (digest * Z)) (earlier : list digest) (rest : list (digest * Z))
  : list (Z * digest) :=
  match rest with
  | [] => []
  | (e, _) :: r => slot_spec all earlier e :: slots_spec all (earlier ++ [e]) r
  end.

Lemma groupAux_slots_spec rest : forall pre seen,
  (forall k, dmem k seen = dmem k (map fst pre)) ->
  groupAux seen rest = slots_spec (pre ++ rest) (map fst pre) rest.
Proof.
  induction rest as [|[k a] r IH]; intros pre seen S; cbn [slots_spec groupAux]; [reflexivity|].
  f_equal.
  - unfold slot_spec. rewrite S. destruct (dmem k (map fst pre)) eqn:E; [reflexivity|].
    rewrite matchSum_app, (matchSum_notin k pre) by (apply dmem_false, E).
    cbn [matchSum]. rewrite list_eqb_refl. reflexivity.
  - rewrite (IH (pre ++ [(k, a)]) (k :: seen)).
    + rewrite <- app_assoc, map_app. reflexivity.
    + intros k'. rewrite map_app. cbn [map fst]. rewrite dmem_snoc, <- S. apply orb_comm.
Qed.

Lemma groupExits_slots_spec xs : groupExits xs = slots_spec xs [] xs.
Proof. apply (groupAux_slots_spec xs [] []). reflexivity. Qed.

Lemma slots_spec_length all rest : forall earlier, length (slots_spec all earlier rest) = length rest.
Proof. induction rest as [|[e a] r IH]; intros earlier; cbn [slots_spec length]; [reflexivity|]. rewrite IH. reflexivity. Qed.
Lemma groupExits_length xs : length (groupExits xs) = length xs.
Proof. rewrite groupExits_slots_spec. apply slots_spec_length. Qed.

Lemma slots_spec_nth all rest : forall earlier k d, (k < length rest)%nat ->
  nth k (slots_spec all earlier rest) d =
  slot_spec all (earlier ++ map fst (firstn k rest)) (fst (nth k rest ([], 0))).
Proof.
  induction rest as [|[e a] r IH]; intros earlier k d L; cbn [length] in L; [lia|].
  destruct k as [|k]; cbn [slots_spec nth firstn map fst].
  - rewrite app_nil_r. reflexivity.
  - rewrite IH by lia. rewrite <- app_assoc. reflexivity.
Qed.
Lemma groupExits_nth (xs : list (digest * Z)) k d : (k < length xs)%nat ->
  nth k (groupExits xs) d = slot_spec xs (map fst (firstn k xs)) (fst (nth k xs ([], 0))).
Proof. intros L. rewrite groupExits_slots_spec. apply slots_spec_nth, L. Qed.

Lemma groupExits_entry xs s k : In (s, k) (groupExits xs) ->
  (s, k) = (0, zero4) \/ (In k (map fst xs) /\ s = matchSum k xs).
Proof.
  intros I. apply (In_nth _ _ (0, zero4)) in I. destruct I as (i & L & E).
  rewrite groupExits_length in L. rewrite groupExits_nth in E by exact L. unfold slot_spec in E.
  destruct (dmem _ _); [left; symmetry; exact E|right].
  inversion E; subst. split; [|reflexivity]. apply in_map, nth_In, L.
Qed.

(* an output slot (sum, account) *)
Definition slot_ok (s : Z * digest) : Prop := 0 <= fst s /\ good4 (snd s).

Lemma groupExits_slots_ok xs : Forall pair_ok xs -> Forall slot_ok (groupExits xs).
Proof.
  intros F. apply Forall_forall. intros [s k] I. apply groupExits_entry in I.
  destruct I as [E|[I ->]]; [inversion E; split; [cbn; lia|apply good4_zero4]|].
  split; cbn [fst snd]; [apply matchSum_bound, F|].
  apply in_map_iff in I. destruct I as ([k' a] & <- & I). rewrite Forall_forall in F. apply (F _ I).
Qed.

Lemma flat_slots_length slots : Forall slot_ok slots -> length (flat_map flat_slot slots) = (5 * length slots)%nat.
Proof.
  intros F. rewrite flat_map_concat_map, (length_concat_const 5), map_length; [reflexivity|].
  apply Forall_map. eapply Forall_impl; [|exact F]. intros [a d] [_ [L _]]. cbn in *. rewrite L. reflexivity.
Qed.
Lemma flat_slots_canon slots : Forall slot_ok slots -> forallb (fun s => fst s <? two32) slots = true ->
  Forall canon (flat_map flat_slot slots).
Proof.
  intros F B. rewrite forallb_forall in B. rewrite Forall_forall in F. apply Forall_flat_map, Forall_forall.
  intros s I. destruct (F s I) as [A [_ C]]. constructor; [|exact C].
  apply canon_u32. split; [exact A|]. apply Z.ltb_lt, B, I.
Qed.

(* the accounts in order of first appearance, those in [earlier] left out *)
Fixpoint first_keys (earlier : list digest) (rest : list (digest * Z)) : list digest :=
  match rest with
  | [] => []
  | (e, _) :: r => if dmem e earlier then first_keys (earlier ++ [e]) r else e :: first_keys (earlier ++ [e]) r
  end.

Lemma first_keys_in rest : forall earlier k,
  In k (first_keys earlier rest) <-> In k (map fst rest) /\ ~ In k earlier.
Proof.
  induction rest as [|[e a] r IH]; intros earlier k; cbn [first_keys map fst In]; [tauto|].
  assert (X : In k (first_keys (earlier ++ [e]) r) <-> In k (map fst r) /\ ~ In k earlier /\ e <> k).
  { rewrite IH, in_app_iff. cbn [In]. tauto. }
  destruct (list_eqb e k) eqn:E; [apply list_eqb_spec in E; subst k|apply list_eqb_false in E];
    (destruct (dmem e earlier) eqn:S; [apply dmem_In in S|apply dmem_false in S]); cbn [In]; rewrite X; tauto.
Qed.
Lemma first_keys_nodup rest : forall earlier, NoDup (first_keys earlier rest).
Proof.
  induction rest as [|[e a] r IH]; intros earlier; cbn [first_keys]; [constructor|].
  destruct (dmem e earlier); [apply IH|]. constructor; [|apply IH].
  rewrite first_keys_in, in_app_iff. cbn [In]. tauto.
Qed.

(* what is left of the slots when the all-zero placeholders are dropped, resp. do not matter *)
Lemma slots_spec_filter (f : Z * digest -> bool) all rest : f (0, zero4) = false -> forall earlier,
  filter f (slots_spec all earlier rest) = filter f (map (fun k => (matchSum k all, k)) (first_keys earlier rest)).
Proof.
  intros F0. induction rest as [|[e a] r IH]; intros earlier; cbn [slots_spec first_keys]; [reflexivity|].
  unfold slot_spec. destruct (dmem e earlier); cbn [map filter]; rewrite IH, ?F0; reflexivity.
Qed.
Lemma slots_spec_forallb (f : Z * digest -> bool) all rest : f (0, zero4) = true -> forall earlier,
  forallb f (slots_spec all earlier rest) = forallb f (map (fun k => (matchSum k all, k)) (first_keys earlier rest)).
Proof.
  intros F0. induction rest as [|[e a] r IH]; intros earlier; cbn [slots_spec first_keys]; [reflexivity|].
  unfold slot_spec. destruct (dmem e earlier); cbn [map forallb]; rewrite IH, ?F0; reflexivity.
Qed.

Lemma group_sums_ok xs :
  forallb (fun s => fst s <? two32) (groupExits xs) = true <-> (forall k, matchSum k xs < two32).
Proof.
  rewrite groupExits_slots_spec, slots_spec_forallb, forallb_forall by reflexivity. split.
  - intros A. apply matchSum_lt_all. intros e a I.
    apply Z.ltb_lt, (A (matchSum e xs, e)), (in_map (fun k => (matchSum k xs, k))), first_keys_in.
    split; [apply (in_map fst _ _ I)|intros []].
  - intros A s I. apply in_map_iff in I. destruct I as (k & <- & _). apply Z.ltb_lt, A.
Qed.

Theorem perm_group_slots (f : Z * digest -> bool) xs xs' : f (0, zero4) = false -> Permutation xs xs' ->
  Permutation (filter f (groupExits xs)) (filter f (groupExits xs')).
Proof.
  intros F0 P. rewrite !groupExits_slots_spec, !slots_spec_filter by exact F0.
  apply perm_filter.
  rewrite (map_ext (fun k => (matchSum k xs, k)) (fun k => (matchSum k xs', k)))
    by (intros k; rewrite (perm_matchSum k xs xs' P); reflexivity).
  apply Permutation_map, NoDup_Permutation; try apply first_keys_nodup.
  intros k. rewrite !first_keys_in.
  assert (Q : In k (map fst xs) <-> In k (map fst xs')).
  { split; apply Permutation_in, Permutation_map; [exact P|symmetry; exact P]. }
  tauto.
Qed.

Definition ref_fee (l : list (list Z)) : Z := fst (fst (ref_header l)).
Definition ref_bh (l : list (list Z)) : digest := snd (fst (ref_header l)).
Definition ref_bn (l : list (list Z)) : Z := snd (ref_header l).

(* the reference is a real child's (the first one's), or all-zero when there is none *)
Lemma ref_cases l :
  (exists q, In q l /\ is_real_pb q = true /\ ref_fee l = lf_fee q /\ ref_bh l = lf_bh q /\ ref_bn l = lf_bn q) \/
  (Forall (fun q => is_real_pb q = false) l /\ ref_fee l = 0 /\ ref_bh l = zero4 /\ ref_bn l = 0).
Proof.
  unfold ref_fee, ref_bh, ref_bn, ref_header. destruct (find is_real_pb l) as [q|] eqn:Fd.
  - left. exists q. apply find_some in Fd. tauto.
  - right. split; [|tauto]. apply Forall_forall. apply (find_none _ _ Fd).
Qed.

Lemma ref_good l : Forall leaf_fields l -> canon (ref_fee l) /\ good4 (ref_bh l) /\ canon (ref_bn l).
Proof.
  intros F. destruct (ref_cases l) as [(q & I & _ & -> & -> & ->)|(_ & -> & -> & ->)].
  - rewrite Forall_forall in F. specialize (F q I). repeat split; apply F.
  - repeat split; try apply canon_0; apply good4_zero4.
Qed.
Lemma ref_bh_real l : list_eqb (ref_bh l) zero4 = negb (existsb is_real_pb l).
Proof.
  destruct (ref_cases l) as [(q & I & R & _ & -> & _)|(N & _ & -> & _)].
  - rewrite (proj2 (existsb_exists _ _)) by (exists q; tauto). apply negb_true_iff, R.
  - destruct (existsb is_real_pb l) eqn:E; [|reflexivity]. apply existsb_exists in E. destruct E as (q & I & R).
    rewrite Forall_forall in N. rewrite (N q I) in R. discriminate.
Qed.

Definition sel_of (H : list Z -> list Z) (qu : list Z * list Z) : digest :=
  if is_dummy_pb (fst qu) then dummyNull H (snd qu) else lf_null (fst qu).

Lemma selected_nullifiers_map H leaves : forall us,
  selected_nullifiers H leaves us = map (sel_of H) (combine leaves us).
Proof.
  induction leaves as [|q r IH]; intros [|u ur]; cbn [selected_nullifiers combine map]; try reflexivity.
  rewrite IH. reflexivity.
Qed.
Lemma selected_nullifiers_length H leaves us : length us = length leaves ->
  length (selected_nullifiers H leaves us) = length leaves.
Proof. intros L. rewrite selected_nullifiers_map, map_length, combine_length. lia. Qed.
Lemma selected_nullifiers_good H leaves us : (forall l, good4 (H l)) -> Forall leaf_fields leaves ->
  Forall good4 (selected_nullifiers H leaves us).
Proof.
  intros Hwf F. rewrite selected_nullifiers_map. apply Forall_map, Forall_forall. intros [q u] I.
  apply in_combine_l in I. rewrite Forall_forall in F. unfold sel_of. cbn [fst snd].
  destruct (is_dummy_pb q); [apply Hwf|apply (F q I)].
Qed.

Lemma sort_spec_perm_eq a b : Permutation a b -> sort_spec a = sort_spec b.
Proof.
  intros P. apply sort_spec_unique; [|apply sort_spec_sorted].
  etransitivity; [apply sort_spec_perm|exact P].
Qed.
Lemma sort_spec_Forall (P : digest -> Prop) ds : Forall P ds -> Forall P (sort_spec ds).
Proof. apply Permutation_Forall. symmetry. apply sort_spec_perm. Qed.

Definition priv_header (l : list (list Z)) : list Z :=
  [2 * zlen l; lf_asset (nth 0 l []); ref_fee l] ++ ref_bh l ++ [ref_bn l].
Definition priv_exits (l : list (list Z)) : list Z := flat_map flat_slot (groupExits (maskedChildPairs l)).
Definition priv_nulls (H : list Z -> list Z) (l us : list (list Z)) : list Z :=
  concat (sort_spec (selected_nullifiers H l us)).

Lemma priv_output_split H l us :
  priv_output H l us = priv_header l ++ priv_exits l ++ priv_nulls H l us ++ repeat 0 (Z.to_nat (7 * zlen l)).
Proof.
  unfold priv_output, priv_header, ref_fee, ref_bh, ref_bn. destruct (ref_header l) as [[fee bh] bn].
  cbv zeta. rewrite <- !app_assoc. reflexivity.
Qed.

Lemma priv_header_length l : Forall leaf_fields l -> length (priv_header l) = 8%nat.
Proof.
  intros F. destruct (ref_good l F) as (_ & [L _] & _). unfold priv_header. rewrite !app_length, L. reflexivity.
Qed.
Lemma priv_exits_length l : Forall leaf_fields l -> length (priv_exits l) = (10 * length l)%nat.
Proof.
  intros F. unfold priv_exits. rewrite flat_slots_length by apply groupExits_slots_ok, maskedChildPairs_ok, F.
  rewrite groupExits_length, maskedChildPairs_length. lia.
Qed.

Section Layout.
  Variable H : list Z -> list Z.
  Hypothesis Hwf : forall x, good4 (H x).
  Variables l us : list (list Z).
  Hypothesis F : Forall leaf_fields l.
  Hypothesis Lu : length us = length l.

  Lemma sorted_selected_good : Forall good4 (sort_spec (selected_nullifiers H l us)).
  Proof using Hwf F. apply sort_spec_Forall, selected_nullifiers_good; assumption. Qed.
  Lemma priv_nulls_length : length (priv_nulls H l us) = (4 * length l)%nat.
  Proof using Hwf F Lu.
    unfold priv_nulls. rewrite (proj1 (good4_concat _ sorted_selected_good)).
    unfold sort_spec. rewrite isort_length, selected_nullifiers_length by exact Lu. reflexivity.
  Qed.

  Lemma priv_output_length : length (priv_output H l us) = (21 * length l + 8)%nat.
  Proof using Hwf F Lu.
    rewrite priv_output_split, !app_length, priv_header_length, priv_exits_length, priv_nulls_length, repeat_length by exact F.
    unfold zlen. lia.
  Qed.
  Lemma priv_output_header : firstn 8 (priv_output H l us) = priv_header l.
  Proof using F. rewrite priv_output_split. apply firstn_exact, priv_header_length, F. Qed.
  Lemma priv_output_bh : firstn 4 (skipn 3 (priv_output H l us)) = ref_bh l.
  Proof using F.
    destruct (ref_good l F) as (_ & [L _] & _). rewrite priv_output_split. unfold priv_header.
    rewrite <- !app_assoc. apply firstn_skipn_mid; [reflexivity|exact L].
  Qed.
  Lemma priv_output_exit_region :
    firstn (10 * length l) (skipn 8 (priv_output H l us)) = flat_map flat_slot (groupExits (maskedChildPairs l)).
  Proof using F.
    rewrite priv_output_split. apply firstn_skipn_mid; [apply priv_header_length|apply priv_exits_length]; exact F.
  Qed.
  Lemma priv_output_null_region :
    firstn (4 * length l) (skipn (8 + 10 * length l) (priv_output H l us)) =
    concat (sort_spec (selected_nullifiers H l us)).
  Proof using Hwf F Lu.
    rewrite priv_output_split, app_assoc. apply firstn_skipn_mid; [|apply priv_nulls_length].
    rewrite app_length, priv_header_length, priv_exits_length by exact F. reflexivity.
  Qed.
  Lemma priv_output_padding : skipn (8 + 14 * length l) (priv_output H l us) = repeat 0 (7 * length l).
  Proof using Hwf F Lu.
    rewrite priv_output_split, !app_assoc. rewrite skipn_exact.
    - f_equal. unfold zlen. lia.
    - rewrite !app_length, priv_header_length, priv_exits_length, priv_nulls_length by exact F. lia.
  Qed.

End Layout.

Lemma priv_output_canon H l us : (forall x, good4 (H x)) -> Forall leaf_fields l -> 2 * zlen l < p ->
  forallb (fun s => fst s <? two32) (groupExits (maskedChildPairs l)) = true ->
  Forall canon (priv_output H l us).
Proof.
  intros Hwf F Hp S. destruct (ref_good l F) as (Cf & [_ Cb] & Cn). pose proof (zlen_nonneg l) as L0.
  rewrite priv_output_split. repeat (apply Forall_app; split).
  - constructor; [unfold canon; lia|]. constructor; [destruct F as [|q r W _]; [apply canon_0|apply W]|].
    constructor; [exact Cf|constructor].
  - exact Cb.
  - constructor; [exact Cn|constructor].
  - apply flat_slots_canon; [apply groupExits_slots_ok, maskedChildPairs_ok, F|exact S].
  - apply good4_concat, sorted_selected_good; assumption.
  - apply Forall_repeat, canon_0.
Qed.

Lemma priv_compat_unfold l : priv_compat l =
  forallb (fun q => lf_asset q =? lf_asset (nth 0 l [])) l
  && forallb (fun q => is_dummy_pb q || (list_eqb (lf_bh q) (ref_bh l) && (lf_fee q =? ref_fee l))) l
  && distinct_digests (map lf_null (filter is_real_pb l))
  && forallb (fun s => fst s <? two32) (groupExits (maskedChildPairs l)).
Proof. unfold priv_compat, ref_bh, ref_fee. destruct (ref_header l) as [[fee bh] bn]. reflexivity. Qed.

(* [priv_compat] compares every child with slot 0 resp. with the first real child; read as agreement on a
   common value it does not mention an order *)
Definition one_asset (l : list (list Z)) : Prop := exists A, forall m, In m l -> lf_asset m = A.
Definition one_header (l : list (list Z)) : Prop :=
  exists bh fee, forall m, In m l -> is_real_pb m = true -> lf_bh m = bh /\ lf_fee m = fee.

Definition compat_prop (l : list (list Z)) : Prop :=
  one_asset l /\ one_header l /\
  NoDup (map lf_null (filter is_real_pb l)) /\
  (forall k, matchSum k (maskedChildPairs l) < two32).

Lemma one_asset_iff l : one_asset l <-> Forall (fun q => lf_asset q = lf_asset (nth 0 l [])) l.
Proof.
  rewrite Forall_forall. split.
  - intros (A & E) q I. rewrite (E q I). symmetry. eapply E, nth0_in, I.
  - intros A. exists (lf_asset (nth 0 l [])). exact A.
Qed.
Lemma assets_ok_iff l : forallb (fun q => lf_asset q =? lf_asset (nth 0 l [])) l = true <-> one_asset l.
Proof. rewrite one_asset_iff. apply forallb_Forall_iff. intros q _. apply Z.eqb_eq. Qed.

Lemma refs_ok_iff l :
  forallb (fun q => is_dummy_pb q || (list_eqb (lf_bh q) (ref_bh l) && (lf_fee q =? ref_fee l))) l = true <->
  one_header l.
Proof.
  rewrite forallb_forall. split.
  - intros A. exists (ref_bh l), (ref_fee l). intros m I R. apply A in I. unfold is_real_pb in R.
    apply negb_true_iff in R. rewrite R in I. cbn [orb] in I.
    rewrite andb_true_iff, list_eqb_spec, Z.eqb_eq in I. exact I.
  - intros (bh & fee & E) q I. destruct (is_dummy_pb q) eqn:D; [reflexivity|]. cbn [orb].
    apply is_real_pb_of_dummy in D. cbn [negb] in D. destruct (E q I D) as [Eb Ef].
    destruct (ref_cases l) as [(q0 & I0 & R0 & -> & -> & _)|[N _]].
    + destruct (E q0 I0 R0) as [Eb0 Ef0]. rewrite Eb, Ef, Eb0, Ef0, list_eqb_refl, Z.eqb_refl. reflexivity.
    + rewrite Forall_forall in N. rewrite (N q I) in D. discriminate.
Qed.

Theorem priv_compat_iff l : priv_compat l = true <-> compat_prop l.
Proof.
  rewrite priv_compat_unfold. unfold compat_prop.
  rewrite !andb_true_iff, assets_ok_iff, refs_ok_iff, distinct_digests_NoDup, group_sums_ok. tauto.
Qed.

Lemma priv_compat_assets l : priv_compat l = true -> Forall (fun q => lf_asset q = lf_asset (nth 0 l [])) l.
Proof. intros C. apply priv_compat_iff in C. apply one_asset_iff, C. Qed.

Lemma compat_prop_perm l l' : Permutation l l' -> compat_prop l -> compat_prop l'.
Proof.
  intros P ((A & EA) & (bh & fee & EB) & C & D). assert (P' : Permutation l' l) by (symmetry; exact P).
  split; [|split; [|split]].
  - exists A. intros m I. apply EA, (Permutation_in _ P' I).
  - exists bh, fee. intros m I. apply EB, (Permutation_in _ P' I).
  - eapply Permutation_NoDup; [|exact C]. apply Permutation_map, perm_filter, P.
  - intros k. rewrite (perm_matchSum k _ _ (perm_masked l' l P')). apply D.
Qed.

Theorem priv_compat_perm l l' : Permutation l l' -> priv_compat l = priv_compat l'.
Proof.
  intros P. apply eq_true_iff_eq. rewrite !priv_compat_iff.
  split; apply compat_prop_perm; [exact P|symmetry; exact P].
Qed.

Lemma perm_combine_leaves {A B} (leaves : list A) (us : list B) (leaves' : list A) (us' : list B) :
  length us = length leaves -> length us' = length leaves' ->
  Permutation (combine leaves us) (combine leaves' us') -> Permutation leaves leaves'.
Proof.
  intros L L' P. rewrite <- (map_fst_combine leaves us L), <- (map_fst_combine leaves' us' L').
  apply Permutation_map, P.
Qed.

Theorem perm_nullifiers H (leaves us leaves' us' : list (list Z)) :
  Permutation (combine leaves us) (combine leaves' us') -> priv_nulls H leaves us = priv_nulls H leaves' us'.
Proof.
  intros P. unfold priv_nulls. f_equal. apply sort_spec_perm_eq. rewrite !selected_nullifiers_map. apply Permutation_map, P.
Qed.

Lemma perm_asset0 l l' : Permutation l l' -> one_asset l -> lf_asset (nth 0 l []) = lf_asset (nth 0 l' []).
Proof.
  intros P (A & E). destruct l as [|x l]; [apply Permutation_nil in P; subst l'; reflexivity|].
  cbn [nth]. rewrite (E x), (E (nth 0 l' [])); [reflexivity| |left; reflexivity].
  apply (Permutation_in _ (Permutation_sym P)). eapply nth0_in, (Permutation_in _ P). left. reflexivity.
Qed.
