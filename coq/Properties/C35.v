(* C35 - Transfer-proof JSON parsing is bounded and consistent with validation.
   Model: Sys/TransferJson.v (from_json_str = raw-length gate + derive(Deserialize) map visitor + the
   bounded field visitors, as a function of the raw byte length and of the decoded document; validate);
   proofs: Sys/TransferJsonProofs.v.
   Level: partial - serde_json's lexing is not modelled: [wf] is "serde_json finds no syntax error", the
   entries are the decoded object members (key, value shape, decoded byte lengths). *)
From V.Base Require Import Common.
From V.Generated Require Import Constants.
From V.Sys Require Import TransferJson TransferJsonProofs.

(* the literals of the property text are the Rust constants *)
Lemma C35_pin_max_json_bytes : MAX_TRANSFER_PROOF_JSON_BYTES = 8 * 1024 * 1024. Proof. reflexivity. Qed.
Lemma C35_pin_max_state_root_hex_len : MAX_STATE_ROOT_HEX_LEN = 64. Proof. reflexivity. Qed.
Lemma C35_pin_max_storage_proof_nodes : MAX_STORAGE_PROOF_NODES = 1024. Proof. reflexivity. Qed.
Lemma C35_pin_max_storage_proof_node_hex_len : MAX_STORAGE_PROOF_NODE_HEX_LEN = 2 ^ 20. Proof. reflexivity. Qed.
Lemma C35_pin_max_storage_proof_hex_bytes : MAX_STORAGE_PROOF_HEX_BYTES = 2 ^ 20. Proof. reflexivity. Qed.
Lemma C35_pin_max_merkle_indices : MAX_MERKLE_INDICES = 1024. Proof. reflexivity. Qed.

(* a document longer than 8 MiB is rejected whatever it contains (the parser is not consulted) *)
Theorem C35_raw_cap_first : forall (raw_len : Z) (wf : bool) (t : top),
  MAX_TRANSFER_PROOF_JSON_BYTES < raw_len -> from_json_str raw_len wf t = Err E_RAW.
Proof. intros raw_len wf t H. unfold from_json_str. apply Z.ltb_lt in H. rewrite H. reflexivity. Qed.

(* exact acceptance set: accepted iff within the raw cap, syntactically well-formed, the four fields
   present exactly once each with the right shape ([decodes_to]: members of a top-level object in any
   order with unknown members ignored, or - serde's derived visit_seq - the four elements of a top-level
   array), and every cap respected (all caps inclusive): state root <= 64 bytes, <= 1024 nodes, every node
   <= 2^20 bytes, all nodes together <= 2^20 bytes, <= 1024 indices.  [d] is then the decoded content. *)
Theorem C35_accept_iff_caps : forall (raw_len : Z) (wf : bool) (t : top) (d : Doc),
  top_ok t ->
  (from_json_str raw_len wf t = Ok d <->
   raw_len <= 8388608 /\ wf = true /\ decodes_to t d /\
   (0 <= d_transfer_count d < two64 /\
    d_state_root_len d <= 64 /\
    zlen (d_nodes d) <= 1024 /\ Forall (fun n => n <= 1048576) (d_nodes d) /\ sum (d_nodes d) <= 1048576 /\
    all_u64 (d_indices d) /\ zlen (d_indices d) <= 1024)).
Proof. exact from_json_str_accept_iff. Qed.

(* never a panic: the result is Ok, the raw-cap error or the parse error *)
Theorem C35_total : forall (raw_len : Z) (wf : bool) (t : top),
  (exists d, from_json_str raw_len wf t = Ok d) \/ from_json_str raw_len wf t = Err E_RAW
  \/ from_json_str raw_len wf t = Err E_PARSE.
Proof.
  intros raw_len wf t. unfold from_json_str. destruct (MAX_TRANSFER_PROOF_JSON_BYTES <? raw_len); [right; left; reflexivity|].
  destruct (serde_parse wf t) as [d|c]; [left; exists d; reflexivity|right; right; reflexivity].
Qed.

(* the standalone validation accepts exactly the structs within the five caps ... *)
Theorem C35_validate_iff_caps : forall d : Doc,
  nonneg (d_nodes d) ->
  (validate d = Ok tt <->
   d_state_root_len d <= 64 /\ zlen (d_nodes d) <= 1024 /\
   Forall (fun n => n <= 1048576) (d_nodes d) /\ sum (d_nodes d) <= 1048576 /\
   zlen (d_indices d) <= 1024).
Proof. intros d Hnn. rewrite validate_ok_raw, (validate_nodes_all _ Hnn), and_assoc. reflexivity. Qed.

(* ... and everything the parser accepts passes it ([top_ok t] plays no part) *)
Theorem C35_accept_implies_validate : forall (raw_len : Z) (wf : bool) (t : top) (d : Doc),
  top_ok t -> from_json_str raw_len wf t = Ok d -> validate d = Ok tt.
Proof. intros raw_len wf t d _. apply accept_implies_validate. Qed.

Definition doc_entries (sr : Z) (nodes ix : list Z) : list entry :=
  [(K_TRANSFER_COUNT, JInt 1); (K_STATE_ROOT, JStr sr); (K_STORAGE_PROOF, JStrs nodes); (K_INDICES, JInts ix)].
Definition doc (sr : Z) (nodes ix : list Z) : top := TObj (doc_entries sr nodes ix).

Example C35_nv_accepts :
  from_json_str 8388608 true (TObj ((9, JOther) :: doc_entries 64 [1048575; 1] [0; 18446744073709551615]))
  = Ok (mkDoc 1 64 [1048575; 1] [0; 18446744073709551615]).
Proof. reflexivity. Qed.
(* a top-level array of the four values is accepted too (and is capped the same way) *)
Example C35_nv_accepts_array :
  from_json_str 19 true (TSeq [JInt 1; JStr 2; JStrs [2]; JInts [0]]) = Ok (mkDoc 1 2 [2] [0]) /\
  from_json_str 99 true (TSeq [JInt 1; JStr 65; JStrs [2]; JInts [0]]) = Err E_PARSE /\
  from_json_str 99 true (TSeq [JInt 1; JStr 2; JStrs [2]; JInts [0]; JOther]) = Err E_PARSE.
Proof. repeat split. Qed.
Example C35_nv_rejections :
  map (fun r => match r with Ok _ => 1 | Err c => - c end)
    [from_json_str 8388609 true (doc 64 [2] [0]);            (* raw cap *)
     from_json_str 100 false (doc 64 [2] [0]);               (* syntax error *)
     from_json_str 100 true (doc 65 [2] [0]);                (* state root *)
     from_json_str 100 true (doc 64 [1048577] [0]);          (* node length *)
     from_json_str 100 true (doc 64 [1048576; 1] [0]);       (* total length *)
     from_json_str 100 true (doc 64 [2] [18446744073709551616]);  (* index does not fit usize *)
     from_json_str 100 true (TObj (tl (doc_entries 64 [2] [0])));           (* missing field *)
     from_json_str 100 true (TObj ((K_STATE_ROOT, JStr 2) :: doc_entries 64 [2] [0]));   (* duplicate field *)
     from_json_str 100 true (TObj [(K_TRANSFER_COUNT, JInt 1); (K_STATE_ROOT, JInt 5); (K_STORAGE_PROOF, JStrs []); (K_INDICES, JInts [])]);
     from_json_str 100 true (doc 64 [1048576] [])]
  = [-1; -2; -2; -2; -2; -2; -2; -2; -2; 1].
Proof. reflexivity. Qed.
(* node-count and index-count caps, with 1025 entries built by repeat *)
Example C35_nv_count_caps :
  is_ok (from_json_str 100 true (doc 0 (repeat 1 1024) (repeat 7 1024))) = true /\
  is_ok (from_json_str 100 true (doc 0 (repeat 1 1025) [])) = false /\
  is_ok (from_json_str 100 true (doc 0 [] (repeat 7 1025))) = false.
Proof. split; [|split]; vm_compute; reflexivity. Qed.
