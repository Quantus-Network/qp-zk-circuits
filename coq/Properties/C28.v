(* C28 - The circuit-config policy is enforced exactly and before any build.
   Model: Sys/ConfigPolicy.v (validate_circuit_config, the six constructors' config gate, the memprof CLI
   AggConfigArgs::{validate, build}); proofs: Sys/ConfigPolicyProofs.v.  usize = 64 bit. *)
From V.Base Require Import Common.
From V.Generated Require Import Constants.
From V.Sys Require Import ConfigPolicy ConfigPolicyProofs.

(* the literals of the property text are the Rust constants *)
Lemma C28_pin_min_num_wires : MIN_NUM_WIRES = 135. Proof. reflexivity. Qed.
Lemma C28_pin_min_num_routed_wires : MIN_NUM_ROUTED_WIRES = 37. Proof. reflexivity. Qed.
Lemma C28_pin_min_max_quotient_degree_factor : MIN_MAX_QUOTIENT_DEGREE_FACTOR = 7. Proof. reflexivity. Qed.
Lemma C28_pin_max_rate_bits : MAX_RATE_BITS = 8. Proof. reflexivity. Qed.
Lemma C28_pin_max_cap_height : MAX_CAP_HEIGHT = 8. Proof. reflexivity. Qed.

(* the canonical configs of the repository, field by field
   (num_wires, num_routed_wires, security_bits, num_challenges, zero_knowledge, max_quotient_degree_factor,
    rate_bits, cap_height, num_query_rounds) *)
Lemma C28_pin_standard_recursion_config :
  enc_config cfg_std = [143; 80; 100; 2; 0; 8; 3; 4; 28]. Proof. reflexivity. Qed.
Lemma C28_pin_standard_recursion_zk_config :
  enc_config cfg_stdzk = [143; 80; 100; 2; 1; 8; 3; 4; 28]. Proof. reflexivity. Qed.
Lemma C28_pin_wormhole_leaf_circuit_config :
  enc_config cfg_leaf = [143; 80; 100; 2; 0; 8; 3; 4; 28]. Proof. reflexivity. Qed.
Lemma C28_pin_wormhole_private_batch_circuit_config :
  enc_config cfg_private_batch = [135; 60; 100; 2; 1; 8; 3; 4; 28]. Proof. reflexivity. Qed.
Lemma C28_pin_wormhole_public_batch_circuit_config :
  enc_config cfg_public_batch = [143; 80; 100; 2; 0; 8; 3; 4; 28]. Proof. reflexivity. Qed.

(* sentence 1: the structural check accepts exactly ... (for every config with usize fields) *)
Theorem C28_policy_exact : forall c : Config,
  usize_config c ->
  (validate_circuit_config c = Ok tt <->
   0 < c_num_challenges c /\ 0 < c_security_bits c /\ 0 < c_num_query_rounds c /\
   135 <= c_num_wires c /\
   37 <= c_num_routed_wires c /\ c_num_routed_wires c <= c_num_wires c /\
   7 <= c_max_quotient_degree_factor c /\
   c_rate_bits c <= 8 /\ c_cap_height c <= 8 /\
   Z.log2_up (c_max_quotient_degree_factor c) <= c_rate_bits c).
Proof. intros c (_ & _ & _ & _ & Hq & _). exact (config_ok_iff_log2_up c Hq). Qed.

(* the machine computation (64 - leading_zeros(n - 1), n - 1 wrapping) is the ceiling of log2 on n >= 1 *)
Theorem C28_log2_ceil_is_ceiling : forall n k : Z,
  1 <= n < two64 -> 0 <= k -> (log2_ceil n <= k <-> n <= 2 ^ k).
Proof.
  intros n k Hn _. rewrite log2_ceil_is_log2_up by exact Hn. symmetry. apply Z.log2_up_le_pow2. lia.
Qed.

(* whatever is not accepted is an error of one of the ten checks *)
Theorem C28_policy_total : forall c : Config,
  validate_circuit_config c = Ok tt \/ exists code, validate_circuit_config c = Err code /\ 1 <= code <= 10.
Proof.
  intro c. unfold validate_circuit_config. do 10 (apply guard_bind_err_range; [lia|]). left. reflexivity.
Qed.

(* with overflow checks compiled in the result is the same and never a panic (the wrapping subtraction is only
   reached with factor >= 7) *)
Theorem C28_policy_no_panic : forall c : Config,
  usize_config c ->
  validate_circuit_config_checked c = validate_circuit_config c /\ validate_circuit_config_checked c <> Err PANIC.
Proof.
  intros c (_ & _ & _ & _ & Hq & _). pose proof (validate_checked_eq c Hq) as E. split; [exact E|]. rewrite E.
  destruct (C28_policy_total c) as [R|(code & R & Hr)]; rewrite R; [discriminate|].
  intro X. inversion X. unfold PANIC in *. lia.
Qed.

(* sentence 2: a constructor (WormholeCircuit::new, WormholeProver::new, PrivateBatchCircuit::new,
   PrivateBatchProver::new, PublicBatchCircuit::new, PublicBatchProver::new) turns a failing config into an error
   that is not a panic; it accepts only policy-passing configs.  The model has ONE result function for the six:
   [constructor_result which c] is the policy check that each of them runs first and does not depend on [which],
   so the two theorems restate C28_policy_total for it; that each constructor does call the check first is
   what the correspondence runs (fid 2802) test, not what is proved here. *)
Theorem C28_constructors_reject : forall (which : Z) (c : Config),
  validate_circuit_config c <> Ok tt ->
  exists code, constructor_result which c = Err code /\ code <> PANIC.
Proof.
  intros which c Hn. destruct (C28_policy_total c) as [R|(code & R & Hr)]; [contradiction|].
  exists code. split; [exact R|unfold PANIC; lia].
Qed.

Theorem C28_constructors_accept_only_policy : forall (which : Z) (c : Config),
  constructor_result which c = Ok tt <-> validate_circuit_config c = Ok tt.
Proof. reflexivity. Qed.

(* sentence 3: the CLI accepts a flag set only if the built config passes the same check
   (all 2 * 3 * 2^8 present/absent combinations, all usize values) *)
Theorem C28_cli_implies_policy : forall a : Args,
  usize_args a -> cli_validate a = Ok tt -> validate_circuit_config (cli_build a) = Ok tt.
Proof. intros a (_ & _ & _ & _ & _ & Rqr & Rs & Rn). exact (cli_implies_policy a Rqr Rs Rn). Qed.

Theorem C28_canonical_configs_pass :
  Forall (fun c => validate_circuit_config c = Ok tt)
         [cfg_std; cfg_stdzk; cfg_leaf; cfg_private_batch; cfg_public_batch].
Proof. repeat constructor. Qed.

Example C28_nv_accepting_config : validate_circuit_config (mkConfig 135 37 1 1 false 7 3 0 1) = Ok tt.
Proof. reflexivity. Qed.
(* one config just beyond each threshold; the last sits on the thresholds and passes *)
Example C28_nv_each_threshold_rejects :
  map (fun c => is_ok (validate_circuit_config c))
    [mkConfig 134 37 1 1 false 7 3 0 1; mkConfig 135 36 1 1 false 7 3 0 1; mkConfig 135 136 1 1 false 7 3 0 1;
     mkConfig 135 37 0 1 false 7 3 0 1; mkConfig 135 37 1 0 false 7 3 0 1; mkConfig 135 37 1 1 false 6 3 0 1;
     mkConfig 135 37 1 1 false 7 9 0 1; mkConfig 135 37 1 1 false 7 3 9 1; mkConfig 135 37 1 1 false 7 3 0 0;
     mkConfig 135 37 1 1 false 9 3 0 1; mkConfig 135 37 1 1 false 8 2 0 1; mkConfig 135 37 1 1 false 257 8 0 1;
     mkConfig 135 37 1 1 false 256 8 8 1]
  = [false; false; false; false; false; false; false; false; false; false; false; false; true].
Proof. reflexivity. Qed.
Example C28_nv_cli_accepts :
  cli_validate (mkArgs (Some true) (Some 4) (Some 8) (Some 140) (Some 140) (Some 16) None None None false) = Ok tt
  /\ cli_validate (mkArgs (Some false) (Some 3) None None None None (Some 1) (Some 1) (Some 1) true) = Ok tt
  /\ cli_validate args_none = Ok tt.
Proof. repeat split. Qed.
(* the implication of sentence 3 is strict: the CLI additionally gates the security knobs *)
Example C28_nv_cli_strictly_stronger :
  cli_validate args_security_90 <> Ok tt /\ validate_circuit_config (cli_build args_security_90) = Ok tt.
Proof. split; [discriminate|reflexivity]. Qed.
