(* C02 - For every satisfiable leaf statement that is not a dummy, the public nullifier equals
   H(H(nullifier-salt || s || c)).  Here s is a secret whose wormhole address H(H(wormhole-salt || s))
   is the recipient in the proven tree leaf, and c is that leaf's transfer count.

   [li_to_account i] and [li_leaf_tc i] are exactly the recipient and the count hashed into the tree
   leaf: the leaf preimage of C03 is li_to_account i ++ li_leaf_tc i ++ [li_asset i; li_input_amount i].
   [is_dummy_stmt i] = all four block-hash limbs are zero and both output amounts are zero (a function
   of the public inputs).  Model, semantics and hypotheses: see C01.v.  Proofs: V.Circ.LeafProofs. *)
From V.Base Require Import Common.
From V.Generated Require Import Constants.
From V.Circ Require Import Field Core Prims Gadgets Leaf LeafProofs.

(* s is the (shared) secret target, c the (shared) count target *)
Theorem C02_nullifier_binding_strong :
  forall (H : list Z -> list Z) (i : LeafIn) (post : list Z -> Prop),
    hash_wf H -> wf_in i -> rel H (leaf_circuit i) post -> is_dummy_stmt i = false ->
    li_nullifier i = H (H (NULLIFIER_SALT_FELTS ++ li_null_secret i ++ li_null_tc i)) /\
    li_to_account i = H (H (UNSPENDABLE_SALT_FELTS ++ li_null_secret i)) /\
    li_leaf_tc i = li_null_tc i /\
    li_null_secret i = li_unsp_secret i.
Proof.
  intros H i post Hwf W R D. apply (leaf_ok_of_rel H Hwf i W) in R.
  destruct R as (_ & _ & _ & _ & (U & S1 & S2 & S3) & B). destruct (B D) as (N & _).
  repeat split; congruence.
Qed.

(* the same with the witnesses quantified *)
Theorem C02_nullifier_binding :
  forall (H : list Z -> list Z) (i : LeafIn) (post : list Z -> Prop),
    hash_wf H -> wf_in i -> rel H (leaf_circuit i) post -> is_dummy_stmt i = false ->
    exists s c, li_nullifier i = H (H (NULLIFIER_SALT_FELTS ++ s ++ c)) /\
                li_to_account i = H (H (UNSPENDABLE_SALT_FELTS ++ s)) /\ li_leaf_tc i = c.
Proof.
  intros H i post Hwf W R D. destruct (C02_nullifier_binding_strong H i post Hwf W R D) as (N & A & T & _).
  exists (li_null_secret i), (li_null_tc i). auto.
Qed.

(* the address derivation and the shared-target equalities hold for dummies too *)
Theorem C02_unspendable_unconditional :
  forall (H : list Z -> list Z) (i : LeafIn) (post : list Z -> Prop),
    hash_wf H -> wf_in i -> rel H (leaf_circuit i) post ->
    li_unsp_account i = H (H (UNSPENDABLE_SALT_FELTS ++ li_unsp_secret i)) /\
    li_to_account i = li_unsp_account i /\ li_null_secret i = li_unsp_secret i /\
    li_null_tc i = li_leaf_tc i.
Proof.
  intros H i post Hwf W R. apply (leaf_ok_of_rel H Hwf i W) in R.
  destruct R as (_ & _ & _ & _ & (U & S1 & S2 & S3) & _). repeat split; congruence.
Qed.

Theorem C02_dummy_means :
  forall i : LeafIn, length (li_block_hash i) = 4%nat ->
    (is_dummy_stmt i = true <-> li_block_hash i = [0; 0; 0; 0] /\ li_out1 i = 0 /\ li_out2 i = 0).
Proof. exact is_dummy_stmt_spec. Qed.

Example C02_nv_wf : wf_in ex_real. Proof. exact ex_real_wf. Qed.
Example C02_nv_not_dummy : is_dummy_stmt ex_real = false. Proof. exact ex_real_not_dummy. Qed.
Example C02_nv_accepted : hon H0 (leaf_circuit ex_real) = Some (leaf_public_inputs ex_real).
Proof. exact ex_real_accepted. Qed.
Example C02_nv_rel : rel H0 (leaf_circuit ex_real) (fun o => o = leaf_public_inputs ex_real).
Proof. exact (leaf_sat H0 ex_real C02_nv_wf C02_nv_accepted). Qed.
(* same statement with another nullifier: no witness at all *)
Example C02_nv_wrong_nullifier : forall post, ~ rel H0 (leaf_circuit ex_bad_nullifier) post.
Proof. apply leaf_unsat_b; vm_compute; reflexivity. Qed.
(* a dummy statement carries an arbitrary nullifier *)
Example C02_nv_dummy_free_nullifier :
  is_dummy_stmt ex_dummy = true /\ li_nullifier ex_dummy = [9; 9; 9; 9] /\
  hon H0 (leaf_circuit ex_dummy) = Some (leaf_public_inputs ex_dummy).
Proof. split; [exact ex_dummy_is_dummy|]. split; [reflexivity|exact ex_dummy_accepted]. Qed.
