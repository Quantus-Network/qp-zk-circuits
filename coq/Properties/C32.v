(* C32 - Debug output never reveals secret or deposit-identifying data.

   Model: Sys/DebugRender.v - for every secret-bearing type a record with ALL fields of the Rust struct (the
   private ones included) and `debug_<type>`, a line-by-line transcription of its `Debug::fmt`; the two
   renderers reproduce core::fmt's DebugStruct / DebugList / PadAdapter for `{:?}` and `{:#?}`.
   Sys/DebugRenderProofs.v: same_rendering, and what dec_go computes.

   What is stated here is NON-INTERFERENCE: two values of a type that agree on the fields listed in the
   hypotheses (the public ones) have the same `{:?}` and the same `{:#?}` rendering, whatever their secret,
   deposit account, transfer count, input amount, digest logs, Merkle siblings and positions are.  Hence the
   output is a function of the public fields alone and cannot contain - in decimal, hex or any other form -
   information about the private ones.
       same_rendering d1 d2  :=  render_compact d1 = render_compact d2 /\ render_pretty d1 = render_pretty d2.

   HONESTY NOTE.  These theorems hold by construction of the model (debug_<type> does not mention the private
   projections); they say that the transcription has the redaction shape, they do not by themselves say
   anything about the Rust code.  The assurance about the code comes from the correspondence run
   (harness/src/bin/redact.rs): the real `format!("{:?}")` / `format!("{:#?}")` strings equal the model's
   strings byte for byte on random and structured values, twins differing only in private fields render
   identically, and no decimal / hex / byte-list / felt rendering of a private value occurs in any output. *)
From Coq Require Import String.
From V.Base Require Import Common.
From V.Generated Require Import Constants.
From V.Sys Require Import DebugRender DebugRenderProofs.

Lemma C32_pin_digest_logs_size : DIGEST_LOGS_SIZE = 110. Proof. reflexivity. Qed.
Lemma C32_pin_digest_logs_felts : DIGEST_LOGS_FELTS = 28. Proof. reflexivity. Qed.
Lemma C32_pin_digest_bytes_len : DIGEST_BYTES_LEN = 32. Proof. reflexivity. Qed.
Lemma C32_pin_poseidon2_output : POSEIDON2_OUTPUT = 4. Proof. reflexivity. Qed.
Lemma C32_pin_felts_per_u64 : FELTS_PER_U64 = 2. Proof. reflexivity. Qed.
Lemma C32_pin_siblings_per_level : MERKLE_SIBLINGS_PER_LEVEL = 3. Proof. reflexivity. Qed.
Lemma C32_pin_field_order : FIELD_ORDER = p. Proof. reflexivity. Qed.

(* In the proofs with field hypotheses both records are taken apart; the hypotheses then identify the printed
   components, and the two documents are one term. *)

(* private inputs: only the header fields and the tree root are shown *)
Theorem C32_noninterference_PrivateCircuitInputs : forall a b : PrivateCircuitInputs,
  pi_parent_hash a = pi_parent_hash b -> pi_state_root a = pi_state_root b ->
  pi_extrinsics_root a = pi_extrinsics_root b -> pi_zk_tree_root a = pi_zk_tree_root b ->
  same_rendering (debug_PrivateCircuitInputs a) (debug_PrivateCircuitInputs b).
Proof. intros [] []; intros; simpl in * |-; subst; apply same_rendering_of_eq; reflexivity. Qed.

(* the same with the record spelled out: every private component is quantified independently on both sides *)
Theorem C32_noninterference_PrivateCircuitInputs_explicit :
  forall parent_hash state_root extrinsics_root zk_tree_root : list Z,
  forall (secret secret' : list Z) (transfer_count transfer_count' : Z) (unspendable_account unspendable_account' : list Z)
         (digest digest' : list Z) (input_amount input_amount' : Z)
         (siblings siblings' : list (list (list Z))) (positions positions' : list Z),
  same_rendering
    (debug_PrivateCircuitInputs
       (mkPrivateCircuitInputs secret transfer_count unspendable_account parent_hash state_root extrinsics_root
          digest input_amount zk_tree_root siblings positions))
    (debug_PrivateCircuitInputs
       (mkPrivateCircuitInputs secret' transfer_count' unspendable_account' parent_hash state_root extrinsics_root
          digest' input_amount' zk_tree_root siblings' positions')).
Proof. intros. apply C32_noninterference_PrivateCircuitInputs; reflexivity. Qed.

(* the whole input bundle: all of `public` is shown, of `private` the four fields above *)
Theorem C32_noninterference_CircuitInputs : forall a b : CircuitInputs,
  ci_public a = ci_public b ->
  pi_parent_hash (ci_private a) = pi_parent_hash (ci_private b) ->
  pi_state_root (ci_private a) = pi_state_root (ci_private b) ->
  pi_extrinsics_root (ci_private a) = pi_extrinsics_root (ci_private b) ->
  pi_zk_tree_root (ci_private a) = pi_zk_tree_root (ci_private b) ->
  same_rendering (debug_CircuitInputs a) (debug_CircuitInputs b).
Proof. intros [? []] [? []]; intros; simpl in * |-; subst; apply same_rendering_of_eq; reflexivity. Qed.

(* nullifier: only the (public) hash *)
Theorem C32_noninterference_Nullifier : forall a b : Nullifier,
  nf_hash a = nf_hash b -> same_rendering (debug_Nullifier a) (debug_Nullifier b).
Proof. intros [] []; intros; simpl in * |-; subst; apply same_rendering_of_eq; reflexivity. Qed.

(* unspendable account: nothing at all *)
Theorem C32_noninterference_UnspendableAccount : forall a b : UnspendableAccount,
  same_rendering (debug_UnspendableAccount a) (debug_UnspendableAccount b).
Proof. intros. apply same_rendering_of_eq. reflexivity. Qed.

(* leaf data: asset id, output amounts, fee *)
Theorem C32_noninterference_ZkLeafData : forall a b : ZkLeafData,
  lf_asset_id a = lf_asset_id b -> lf_output_amount_1 a = lf_output_amount_1 b ->
  lf_output_amount_2 a = lf_output_amount_2 b -> lf_volume_fee_bps a = lf_volume_fee_bps b ->
  same_rendering (debug_ZkLeafData a) (debug_ZkLeafData b).
Proof. intros [] []; intros; simpl in * |-; subst; apply same_rendering_of_eq; reflexivity. Qed.

(* tree-path data: root, the `depth` field, the dummy flag and the public part of the leaf.
   NB `depth` is a field of its own in the Rust struct; the constructors set it to the number of sibling levels,
   so the LENGTH of the path is published by this impl (its content is not). *)
Theorem C32_noninterference_ZkMerkleProofData : forall a b : ZkMerkleProofData,
  mp_root_hash a = mp_root_hash b -> mp_depth a = mp_depth b -> mp_is_not_dummy a = mp_is_not_dummy b ->
  lf_asset_id (mp_leaf a) = lf_asset_id (mp_leaf b) ->
  lf_output_amount_1 (mp_leaf a) = lf_output_amount_1 (mp_leaf b) ->
  lf_output_amount_2 (mp_leaf a) = lf_output_amount_2 (mp_leaf b) ->
  lf_volume_fee_bps (mp_leaf a) = lf_volume_fee_bps (mp_leaf b) ->
  same_rendering (debug_ZkMerkleProofData a) (debug_ZkMerkleProofData b).
Proof. intros [? ? ? ? [] ?] [? ? ? ? [] ?]; intros; simpl in * |-; subst; apply same_rendering_of_eq; reflexivity. Qed.

(* header inputs: everything but the digest logs *)
Theorem C32_noninterference_HeaderInputs : forall a b : HeaderInputs,
  hi_parent_hash a = hi_parent_hash b -> hi_block_number a = hi_block_number b ->
  hi_state_root a = hi_state_root b -> hi_extrinsics_root a = hi_extrinsics_root b ->
  hi_zk_tree_root a = hi_zk_tree_root b ->
  same_rendering (debug_HeaderInputs a) (debug_HeaderInputs b).
Proof. intros [] []; intros; simpl in * |-; subst; apply same_rendering_of_eq; reflexivity. Qed.

(* the derived Debug of BlockHeader nests HeaderInputs' redacting one *)
Theorem C32_noninterference_BlockHeader : forall a b : BlockHeader,
  bh_block_hash a = bh_block_hash b ->
  hi_parent_hash (bh_header a) = hi_parent_hash (bh_header b) ->
  hi_block_number (bh_header a) = hi_block_number (bh_header b) ->
  hi_state_root (bh_header a) = hi_state_root (bh_header b) ->
  hi_extrinsics_root (bh_header a) = hi_extrinsics_root (bh_header b) ->
  hi_zk_tree_root (bh_header a) = hi_zk_tree_root (bh_header b) ->
  same_rendering (debug_BlockHeader a) (debug_BlockHeader b).
Proof. intros [? []] [? []]; intros; simpl in * |-; subst; apply same_rendering_of_eq; reflexivity. Qed.

(* prover: only whether it has been committed *)
Theorem C32_noninterference_WormholeProver : forall a b : WormholeProver,
  option_is_none (wp_targets a) = option_is_none (wp_targets b) ->
  same_rendering (debug_WormholeProver a) (debug_WormholeProver b).
Proof. intros a b H. apply same_rendering_of_eq. unfold debug_WormholeProver. rewrite H. reflexivity. Qed.

(* `same_rendering` is what the dispatch compares: equal output in both modes *)
Theorem C32_same_rendering_modes : forall d1 d2,
  same_rendering d1 d2 -> forall mode, render mode d1 = render mode d2.
Proof. intros d1 d2 [Hc Hp] mode. unfold render. destruct (mode =? 0); assumption. Qed.

(* the number printer of the model is positional decimal (so "the decimal rendering" means what it should):
   reading the digits back gives the number, hence distinct numbers print differently *)
Theorem C32_decimal_roundtrip : forall n, 0 <= n -> undec (dec n) = n.
Proof.
  intros n Hn. unfold dec. rewrite dec_go_value; [cbn; lia|exact Hn|].
  destruct (Z.eq_dec n 0) as [->|Hz]; [cbn; lia|].
  rewrite Nat2Z.inj_succ, Z2Nat.id by apply Z.log2_nonneg. apply Z.log2_spec. lia.
Qed.
Theorem C32_decimal_injective : forall a b, 0 <= a -> 0 <= b -> dec a = dec b -> a = b.
Proof. intros a b Ha Hb E. rewrite <- (C32_decimal_roundtrip a Ha), <- (C32_decimal_roundtrip b Hb), E. reflexivity. Qed.

(* two private-input records that share the public fields and differ in EVERY private field *)
Example C32_ex_priv_a : PrivateCircuitInputs :=
  mkPrivateCircuitInputs (repeat 171 32) 18446744073709551615 (repeat 205 32)
    (repeat 5 32) (repeat 3 32) (repeat 4 32) (repeat 238 110) 4294967295 (repeat 0 32)
    [[repeat 17 32; repeat 18 32; repeat 19 32]] [2].
Example C32_ex_priv_b : PrivateCircuitInputs :=
  mkPrivateCircuitInputs (repeat 1 32) 7 (repeat 2 32)
    (repeat 5 32) (repeat 3 32) (repeat 4 32) (repeat 9 110) 1000 (repeat 0 32)
    [] [].
Example C32_ex_priv_differ_in_every_private_field :
  pi_secret C32_ex_priv_a <> pi_secret C32_ex_priv_b /\
  pi_transfer_count C32_ex_priv_a <> pi_transfer_count C32_ex_priv_b /\
  pi_unspendable_account C32_ex_priv_a <> pi_unspendable_account C32_ex_priv_b /\
  pi_digest C32_ex_priv_a <> pi_digest C32_ex_priv_b /\
  pi_input_amount C32_ex_priv_a <> pi_input_amount C32_ex_priv_b /\
  pi_zk_merkle_siblings C32_ex_priv_a <> pi_zk_merkle_siblings C32_ex_priv_b /\
  pi_zk_merkle_positions C32_ex_priv_a <> pi_zk_merkle_positions C32_ex_priv_b.
Proof. repeat split; discriminate. Qed.
Example C32_ex_priv_render_equal :
  same_rendering (debug_PrivateCircuitInputs C32_ex_priv_a) (debug_PrivateCircuitInputs C32_ex_priv_b).
Proof. apply C32_noninterference_PrivateCircuitInputs; reflexivity. Qed.

(* the rendering is not constant: a different public field gives a different string (both modes) *)
Example C32_ex_public_field_is_shown :
  let c := mkPrivateCircuitInputs (repeat 1 32) 7 (repeat 2 32)
             (repeat 6 32) (repeat 3 32) (repeat 4 32) (repeat 9 110) 1000 (repeat 0 32) [] [] in
  render_compact (debug_PrivateCircuitInputs c) <> render_compact (debug_PrivateCircuitInputs C32_ex_priv_b) /\
  render_pretty (debug_PrivateCircuitInputs c) <> render_pretty (debug_PrivateCircuitInputs C32_ex_priv_b).
Proof. intro c. split; apply list_eqb_false; vm_compute; reflexivity. Qed.

(* the exact text for one value, as a regression anchor for the two renderers
   (Nullifier with hash [1, 2, p + 1 (non-canonical inner value, printed reduced), 0]) *)
Example C32_ex_nullifier_compact :
  render_compact (debug_Nullifier (mkNullifier [1; 2; p + 1; 0] (repeat 171 32) [5; 6]))
  = lit "Nullifier { hash: [1, 2, 1, 0], secret: ""[REDACTED]"", transfer_count: ""[REDACTED]"" }".
Proof. vm_compute. reflexivity. Qed.
Example C32_ex_unspendable_pretty :
  render_pretty (debug_UnspendableAccount (mkUnspendableAccount [1; 2; 3; 4] (repeat 171 32)))
  = lit "UnspendableAccount {" ++ [NL] ++ lit "    account_id: ""[REDACTED]""," ++ [NL] ++
    lit "    secret: ""[REDACTED]""," ++ [NL] ++ lit "}".
Proof. vm_compute. reflexivity. Qed.
Example C32_ex_prover :
  render_compact (debug_WormholeProver (mkWormholeProver [] [171; 205] None))
  = lit "WormholeProver { circuit_data: ""[ProverCircuitData]"", partial_witness: ""[REDACTED]"", committed: true }".
Proof. vm_compute. reflexivity. Qed.
