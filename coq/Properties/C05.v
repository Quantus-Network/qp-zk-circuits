(* C05 - For every well-formed honest input (canonical digests, a valid tree path of depth 0..16, amounts
   satisfying the fee rule), the leaf prover produces a proof that the canonical pinned verifier
   accepts.  Its 21 public inputs are asset, out1, out2, fee, nullifier, exit1, exit2, block hash, block
   number in that order, and parse back to the input statement.  Inputs with depth above 16, mismatched
   position counts or positions above 3 are rejected with an error, never a panic.

   Model: V.Sys.LeafProver -
     [fill x]            fill_witness + ZkMerkleProofData::try_from + the fill_targets of the fragments:
                         the assignment of every input target of the leaf circuit ([Leaf.LeafIn]) or an
                         error code (1 depth, 2 length mismatch, 3 position); it has no panic path;
     [layout21 x]        the 21 public inputs of statement x;
     [prove_outcome H x] [0] commit failed, [2] the witness does not satisfy the circuit,
                         1 :: pis = honest witness generation of the leaf circuit ([hon], V.Circ.Core,
                         circuit model V.Circ.Leaf) succeeded with public inputs pis.
   [parse_leaf_u64] is the model of PublicCircuitInputs::try_from_u64_slice (V.Sys.Parsers, C24).
   What is proved: a well-formed honest input yields an assignment on which every constraint of the
   leaf circuit holds (completeness of the circuit + witness filling), with exactly these public inputs.
   What is NOT proved but checked by the correspondence harness on every case: that plonky2 turns a
   satisfying witness into a proof which the pinned verifier accepts.
   Proofs: V.Sys.LeafProverProofs (on top of V.Circ.LeafProofs). *)
From V.Base Require Import Common.
From V.Generated Require Import Constants.
From V.Circ Require Import Field Core Prims Gadgets Leaf LeafProofs.
From V.Sys Require Import Parsers LeafProver LeafProverProofs.

Lemma C05_pin_max_depth : MERKLE_MAX_DEPTH = 16. Proof. reflexivity. Qed.
Lemma C05_pin_order : INPUTS_GOLDILOCKS_ORDER = p /\ FIELD_ORDER = p. Proof. split; reflexivity. Qed.
Lemma C05_pin_layout :
  LEAF_PI_LEN = 21 /\ IDX_ASSET_ID = 0 /\ IDX_OUTPUT_AMOUNT_1 = 1 /\ IDX_OUTPUT_AMOUNT_2 = 2 /\
  IDX_VOLUME_FEE_BPS = 3 /\ IDX_NULLIFIER_START = 4 /\ IDX_NULLIFIER_END = 8 /\ IDX_EXIT_1_START = 8 /\
  IDX_EXIT_1_END = 12 /\ IDX_EXIT_2_START = 12 /\ IDX_EXIT_2_END = 16 /\ IDX_BLOCK_HASH_START = 16 /\
  IDX_BLOCK_HASH_END = 20 /\ IDX_BLOCK_NUMBER = 20.
Proof. repeat split. Qed.
Lemma C05_pin_digest : DIGEST_LOGS_FELTS = 28. Proof. reflexivity. Qed.

Theorem C05_wf_x_means :
  forall x : ProverIn, wf_x x <->
    (0 <= x_asset x < 2 ^ 32 /\ 0 <= x_out1 x < 2 ^ 32 /\ 0 <= x_out2 x < 2 ^ 32 /\ 0 <= x_fee x < 2 ^ 32 /\
     0 <= x_input_amount x < 2 ^ 32 /\ 0 <= x_block_number x < 2 ^ 32 /\
     0 <= x_transfer_count x < 2 ^ 64) /\
    (wf_list 4 (x_nullifier x) /\ wf_list 4 (x_exit1 x) /\ wf_list 4 (x_exit2 x) /\
     wf_list 4 (x_block_hash x) /\ wf_list 4 (x_secret x) /\ wf_list 4 (x_unspendable_account x) /\
     wf_list 4 (x_parent_hash x) /\ wf_list 4 (x_state_root x) /\ wf_list 4 (x_extrinsics_root x) /\
     wf_list 4 (x_tree_root x)) /\
    wf_list 28 (x_digest x) /\ Forall wf_level (x_siblings x).
Proof.
  intros x. split.
  - intros []. split; [|split; [|split]]; repeat (split; [assumption|]); assumption.
  - intros W. decompose [and] W. constructor; auto.
Qed.

Theorem C05_honest_means :
  forall (H : list Z -> list Z) (x : ProverIn), honest H x <->
    (length (x_siblings x) <= 16)%nat /\ length (x_positions x) = length (x_siblings x) /\
    Forall (fun q => 0 <= q <= 3) (x_positions x) /\
    x_fee x <= 10000 /\ (x_out1 x + x_out2 x) * 10000 <= x_input_amount x * (10000 - x_fee x) /\
    x_unspendable_account x = H (H (UNSPENDABLE_SALT_FELTS ++ x_secret x)) /\
    (~ (x_block_hash x = [0; 0; 0; 0] /\ x_out1 x = 0 /\ x_out2 x = 0) ->
     x_nullifier x = H (H (NULLIFIER_SALT_FELTS ++ x_secret x ++ tc_limbs (x_transfer_count x))) /\
     x_tree_root x =
       fold_insert H (H (x_unspendable_account x ++ tc_limbs (x_transfer_count x)
                         ++ [x_asset x; x_input_amount x]))
                   (combine (x_siblings x) (x_positions x)) /\
     x_block_hash x = H (x_parent_hash x ++ [x_block_number x] ++ x_state_root x ++ x_extrinsics_root x
                         ++ x_tree_root x ++ x_digest x)).
Proof.
  intros H x. split.
  - intros []. repeat (split; [assumption|]). assumption.
  - intros (A & B & C & D & E & F & G). constructor; assumption.
Qed.

Theorem C05_complete :
  forall (H : list Z -> list Z) (x : ProverIn),
    hash_wf H -> wf_x x -> honest H x ->
    exists i, fill x = Ok i /\ hon H (leaf_circuit i) = Some (layout21 x) /\
              prove_outcome H x = 1 :: layout21 x.
Proof. intros H x Hwf W Hx. exact (complete H Hwf x W Hx). Qed.

(* ... and the filled assignment is the one every prover is held to: no other witness exists (C04) *)
Theorem C05_filled_assignment_wf :
  forall (H : list Z -> list Z) (x : ProverIn), wf_x x -> honest H x -> wf_in (filled x) /\ fill x = Ok (filled x).
Proof. intros H x W Hx. split; [exact (filled_wf H x W Hx)|exact (fill_honest H x Hx)]. Qed.

Theorem C05_public_inputs_order :
  forall x : ProverIn,
    layout21 x = [x_asset x; x_out1 x; x_out2 x; x_fee x] ++ x_nullifier x ++ x_exit1 x ++ x_exit2 x
                 ++ x_block_hash x ++ [x_block_number x].
Proof. reflexivity. Qed.

Theorem C05_public_inputs_length : forall x : ProverIn, wf_x x -> length (layout21 x) = 21%nat.
Proof. exact layout21_length. Qed.

Theorem C05_parse_back :
  forall x : ProverIn, wf_x x ->
    parse_leaf_u64 (layout21 x) =
    Ok (mkLeafPI (x_asset x) (x_out1 x) (x_out2 x) (x_fee x) (x_nullifier x) (x_exit1 x) (x_exit2 x)
                 (x_block_hash x) (x_block_number x)).
Proof. exact parse_back. Qed.

Theorem C05_rejects :
  forall x : ProverIn,
    (zlen (x_siblings x) > 16 \/ zlen (x_positions x) <> zlen (x_siblings x) \/
     Exists (fun q => q > 3) (x_positions x)) -> exists c, fill x = Err c.
Proof. intros x R. apply fill_rejects_iff. exact R. Qed.

Theorem C05_rejects_iff :
  forall x : ProverIn,
    (exists c, fill x = Err c) <->
    (zlen (x_siblings x) > 16 \/ zlen (x_positions x) <> zlen (x_siblings x) \/
     Exists (fun q => q > 3) (x_positions x)).
Proof. exact fill_rejects_iff. Qed.

(* the model of fill has no panic path (its only failures are the three [bail!]s); -1 is the
   encoding of a caught Rust panic in the correspondence runs *)
Theorem C05_no_panic : forall x : ProverIn, fill x <> Err (-1).
Proof. exact fill_no_panic. Qed.

Theorem C05_error_codes :
  forall x : ProverIn,
    fill x = Ok (filled x) \/ fill x = Err 1 \/ fill x = Err 2 \/ fill x = Err 3.
Proof. intros x. destruct (fill_cases x) as [[_ E]|[_ E]]; tauto. Qed.

(* whatever is proved for a committed input exposes exactly its statement (any hash, any input) *)
Theorem C05_dishonest_fails :
  forall (H : list Z -> list Z) (x : ProverIn) (i : LeafIn) (pis : list Z),
    fill x = Ok i -> hon H (leaf_circuit i) = Some pis -> pis = layout21 x.
Proof. exact proved_public_inputs. Qed.

Example C05_nv_H0 : hash_wf H0. Proof. exact H0_wf. Qed.
Example C05_nv_wf : wf_x ex_x. Proof. exact ex_x_wf. Qed.
Example C05_nv_honest : honest H0 ex_x. Proof. exact ex_x_honest. Qed.
(* depth 1, position 2, (out1, out2, fee, in) = (40, 9, 10 bps, 50) *)
Example C05_nv_proved : prove_outcome H0 ex_x = 1 :: layout21 ex_x.
Proof. vm_compute. reflexivity. Qed.
Example C05_nv_depth0 : prove_outcome H0 ex_x_depth0 = 1 :: layout21 ex_x_depth0.
Proof. vm_compute. reflexivity. Qed.
Example C05_nv_parse_back : exists s, parse_leaf_u64 (layout21 ex_x) = Ok s /\ l_fee s = 10 /\ l_bn s = 1000.
Proof. eexists. vm_compute. repeat split. Qed.
(* fee rule violated: commit succeeds, proving fails *)
Example C05_nv_bad_rule : prove_outcome H0 ex_x_bad_rule = [2]. Proof. vm_compute. reflexivity. Qed.
(* 17 levels / 2 positions for 1 level / position 4: errors 1, 2, 3 *)
Example C05_nv_rejected :
  fill ex_x_deep = Err 1 /\ fill ex_x_mismatch = Err 2 /\ fill ex_x_pos4 = Err 3 /\
  prove_outcome H0 ex_x_deep = [0].
Proof. vm_compute. repeat split. Qed.
