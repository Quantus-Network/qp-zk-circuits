(* C33 - Secret material is scrubbed before its memory is released.

   "For every secret, no heap block that held the secret's bytes or felt encoding is freed before being zeroed by the
    secret-handling APIs (construction, hashing, serialization, deserialization, drop), except the documented
    upstream hashing buffer.  Constructing a secret zeroes the caller's buffer whether or not the value is valid."

   Model: Sys/Zeroize.v - every heap block the APIs of wormhole/circuit/src/{sensitive,nullifier,unspendable_account}.rs
   allocate, as a trace of events (Alloc / WriteSecret / WritePublic / Zero / Free / Realloc / FreeUpstreamPad), with
   Rust's Vec growth rule; capacities and push sizes are the generated Rust constants.  Proofs: Sys/ZeroizeProofs.v.
   SCOPE (see lib/props/c33.py): the theorems are about this allocation discipline.  Whether the compiled code really
   performs the writes (dead-store elimination), stack copies, allocator reuse and plonky2's own copies are outside
   the model; the allocator scan of harness/src/bin/zeroize.rs is the evidence for the real binary, and it must
   observe exactly [observe (run_seq codes)].

   Vocabulary:
     run_seq codes      the events of a caller that performs the API calls [codes] one after the other (37 calls:
                        Secret::new valid/invalid, From/TryFrom, expose_*, Nullifier::{new, from_preimage, From<&CircuitInputs>,
                        to_bytes, from_bytes, to_field_elements, from_field_elements, error paths}, the same for
                        UnspendableAccount, drops, and the public SensitiveFelts::new on a caller Vec with spare capacity
                        + read + drop) and finally drops everything it still holds; other codes are no-ops
     trace_safe t       executable checker;  safe_from s t  the same as an inductive Prop over block statuses
                        (Dead | Clean | Tainted = secret written, not zeroed since), spelled out below
     observe t          the (size, kind) list the allocator scan must see: 1 = freed after scrub, 2 = upstream pad buffer,
                        3 = freed tainted, 4 = reallocated tainted *)
From V.Base Require Import Common.
From V.Generated Require Import Constants.
From V.Sys Require Import Zeroize ZeroizeProofs.

(* Nullifier::from_preimage: Vec::with_capacity(SALT_NUM_TARGETS + SECRET_NUM_TARGETS + TRANSFER_COUNT_NUM_TARGETS),
   then extend(salt) [len of string_to_felts(NULLIFIER_SALT)], extend(secret_felts) [Digest], extend(transfer_count_felts) *)
Lemma C33_pin_nullifier_preimage :
  NULLIFIER_SALT_NUM_TARGETS + NULLIFIER_SECRET_NUM_TARGETS + NULLIFIER_TRANSFER_COUNT_NUM_TARGETS = 9 /\
  nullifier_preimage_capacity = 9 /\
  zlen NULLIFIER_SALT_FELTS = 3 /\ POSEIDON2_OUTPUT = 4 /\ FELTS_PER_U64 = 2 /\
  zlen NULLIFIER_SALT_FELTS + POSEIDON2_OUTPUT + FELTS_PER_U64 <= nullifier_preimage_capacity.
Proof. repeat split; first [reflexivity | discriminate]. Qed.
(* Nullifier::to_bytes: with_capacity(DIGEST_BYTES_LEN + SECRET_BYTES_LEN + size_of::<u64>()), pushes 32 + 32 + 8 *)
Lemma C33_pin_nullifier_bytes :
  DIGEST_BYTES_LEN + NULLIFIER_SECRET_BYTES_LEN + U64_BYTES = 72 /\
  DIGEST_BYTES_LEN + DIGEST_BYTES_LEN + U64_BYTES <= DIGEST_BYTES_LEN + NULLIFIER_SECRET_BYTES_LEN + U64_BYTES.
Proof. split; first [reflexivity | discriminate]. Qed.
(* Nullifier::to_field_elements: with_capacity(NULLIFIER_SIZE_FELTS), pushes 4 + 4 + 2 *)
Lemma C33_pin_nullifier_felts :
  NULLIFIER_SIZE_FELTS = 10 /\
  POSEIDON2_OUTPUT + POSEIDON2_OUTPUT + NULLIFIER_TRANSFER_COUNT_NUM_TARGETS = NULLIFIER_SIZE_FELTS.
Proof. split; reflexivity. Qed.
(* UnspendableAccount::from_secret: with_capacity(PREIMAGE_NUM_TARGETS), pushes salt 3 + secret 4 *)
Lemma C33_pin_unspendable_preimage :
  UNSPENDABLE_PREIMAGE_NUM_TARGETS = 7 /\ zlen UNSPENDABLE_SALT_FELTS = 3 /\
  zlen UNSPENDABLE_SALT_FELTS + POSEIDON2_OUTPUT = UNSPENDABLE_PREIMAGE_NUM_TARGETS.
Proof. repeat split; reflexivity. Qed.
(* UnspendableAccount::to_bytes: with_capacity(2 * DIGEST_BYTES_LEN); to_field_elements: ACCOUNT_ID_NUM_TARGETS + SECRET_NUM_TARGETS *)
Lemma C33_pin_unspendable_buffers :
  2 * DIGEST_BYTES_LEN = 64 /\ DIGEST_BYTES_LEN + DIGEST_BYTES_LEN = 2 * DIGEST_BYTES_LEN /\
  UNSPENDABLE_ACCOUNT_ID_NUM_TARGETS + UNSPENDABLE_SECRET_NUM_TARGETS = 8 /\
  POSEIDON2_OUTPUT + POSEIDON2_OUTPUT = UNSPENDABLE_ACCOUNT_ID_NUM_TARGETS + UNSPENDABLE_SECRET_NUM_TARGETS.
Proof. repeat split; reflexivity. Qed.
(* the upstream sponge rate (pad10_to_rate pads to a multiple of it) and the two exempt buffer sizes in bytes *)
Lemma C33_pin_pad : POSEIDON2_SPONGE_RATE = 8 /\ pad_sizes = [128; 64].
Proof. split; reflexivity. Qed.
Lemma C33_pin_order : INPUTS_GOLDILOCKS_ORDER = p /\ DIGEST_BYTES_LEN = 32 /\ p = 2 ^ 64 - 2 ^ 32 + 1.
Proof. repeat split; reflexivity. Qed.

(* [safe_from s t]: starting from block statuses [s], the trace [t] never frees or reallocates a Tainted block, and
   never touches a Dead one.  The one distinguished exception is FreeUpstreamPad (last clause). *)
Lemma C33_spec_safe_from : forall s t,
  safe_from s t <->
  match t with
  | [] => True
  | Alloc b _ :: r => s b = Dead /\ safe_from (sset s b Clean) r
  | WriteSecret b :: r => s b <> Dead /\ safe_from (sset s b Tainted) r
  | WritePublic b :: r => s b <> Dead /\ safe_from s r
  | Zero b :: r => s b <> Dead /\ safe_from (sset s b Clean) r
  | Free b :: r => s b = Clean /\ safe_from (sset s b Dead) r
  | Realloc b _ :: r => s b = Clean /\ safe_from s r
  | FreeUpstreamPad b :: r => s b <> Dead /\ safe_from (sset s b Dead) r
  end.
Proof. intros s [|e r]; [split; [intros _; exact I|constructor]|destruct e; apply safe_from_cons]. Qed.
Lemma C33_spec_sset : forall s b v b', sset s b v b' = if bid_eqb b b' then v else s b'.
Proof. reflexivity. Qed.
Lemma C33_spec_bid_eqb : forall a b, bid_eqb a b = true <-> a = b.
Proof. exact bid_eqb_spec. Qed.
(* the executable checker decides exactly that Prop *)
Lemma C33_spec_trace_safe : forall t, trace_safe t = true <-> safe_from (fun _ => Dead) t.
Proof. intro t. apply (trace_ok_iff_safe_from t h_empty). intro b. rewrite get_empty. reflexivity. Qed.

(* Every call sequence, of any length: no block is freed or reallocated while it holds the secret (the upstream pad
   buffer being the distinguished FreeUpstreamPad event), and at the end every block has been released. *)
Theorem C33_no_secret_free : forall codes : list Z,
  trace_safe (run_seq codes) = true /\ safe_from (fun _ => Dead) (run_seq codes).
Proof.
  intro codes. assert (T : trace_safe (run_seq codes) = true) by apply (run_seq_good codes).
  split; [exact T|apply C33_spec_trace_safe; exact T].
Qed.

Theorem C33_all_released : forall codes : list Z, fst (fst (run_trace h_empty (run_seq codes))) = h_empty.
Proof. intro codes. apply (run_seq_good codes). Qed.

(* The exemption is exact: what the allocator scan is predicted to see consists only of "freed after scrub" entries and
   of the two upstream pad buffers (128 / 64 bytes), the latter exactly once per call that hashes the secret. *)
Theorem C33_exemption_exact : forall codes : list Z,
  Forall (fun sk => snd sk = K_SCRUBBED \/ (snd sk = K_UPSTREAM_PAD /\ In (fst sk) pad_sizes)) (observe (run_seq codes)) /\
  count_pad (observe (run_seq codes)) = count_hash_ops (map op_of_Z codes).
Proof.
  intro codes. destruct (run_seq_good codes) as (_ & _ & O & N). exact (conj (obs_entries_ok _ O) N).
Qed.

(* WHY: a Vec with enough reserved capacity only writes - it is never reallocated ... *)
Theorem C33_vec_extends_no_realloc : forall pushes v,
  0 <= v_len v -> v_len v + sum_pushes pushes <= v_cap v ->
  Forall (fun e => e = WriteSecret (v_blk v) \/ e = WritePublic (v_blk v)) (snd (vec_extend_all v pushes)) /\
  v_cap (fst (vec_extend_all v pushes)) = v_cap v.
Proof.
  induction pushes as [|[n s] r IH]; intros v L H.
  - split; [constructor|reflexivity].
  - rewrite sum_pushes_cons in H. pose proof (sum_pushes_nonneg r). rewrite vec_extend_all_cons.
    destruct (Z.le_gt_cases n 0) as [N|N].
    + rewrite vec_extend_skip by exact N. apply IH; lia.
    + rewrite vec_extend_fit by lia. cbn [fst snd app].
      destruct (IH (mkVec (v_blk v) (v_elem v) (v_cap v) (v_len v + n))) as [W C]; cbn [v_len v_cap]; try lia.
      split; [constructor; [apply is_write_write_ev|exact W]|exact C].
Qed.

(* ... with too little capacity some push reallocates ... *)
Theorem C33_vec_extends_realloc : forall pushes v,
  0 < v_cap v -> 0 <= v_len v <= v_cap v -> v_len v + sum_pushes pushes > v_cap v ->
  Exists (fun e => exists n, e = Realloc (v_blk v) n) (snd (vec_extend_all v pushes)).
Proof.
  intros pushes v C L H. destruct (vec_extends_first_realloc pushes v C L H) as (pre & n & post & E & _). rewrite E.
  apply Exists_app. right. left. exists n. reflexivity.
Qed.

(* ... and if the secret was written before, the checker rejects the trace whatever follows (it is not vacuous). *)
Theorem C33_growth_would_leak : forall b elem cap n1 n2 s2 rest,
  0 < n1 <= cap -> n1 + n2 > cap ->
  trace_safe (snd (vec_with_capacity b elem cap)
              ++ snd (vec_extend_all (fst (vec_with_capacity b elem cap)) [(n1, true); (n2, s2)]) ++ rest) = false.
Proof.
  intros b elem cap n1 n2 s2 rest H1 H2. apply growth_would_leak; [exact H1|].
  rewrite sum_pushes_cons. cbn [sum_pushes fold_right]. lia.
Qed.

(* from_preimage is safe for every reserved capacity >= what is pushed; Vec::new() (capacity 0) or 4 or 8 are not *)
Theorem C33_preimage_capacity : forall cap,
  zlen NULLIFIER_SALT_FELTS + POSEIDON2_OUTPUT + FELTS_PER_U64 <= cap -> trace_safe (nullifier_from_preimage_cap cap) = true.
Proof.
  intros cap H. cbn in H. assert (C : 0 <? cap = true) by (apply Z.ltb_lt; lia).
  unfold trace_safe, nullifier_from_preimage_cap, vec_with_capacity, drop_sensitive_felts, POSEIDON2_OUTPUT, FELTS_PER_U64.
  do 3 (rewrite vec_extend_fit by (cbn; lia); cbv beta iota). cbn [v_cap]. rewrite C. reflexivity.
Qed.
Example C33_preimage_capacity_too_small :
  trace_safe (nullifier_from_preimage_cap 0) = false /\ trace_safe (nullifier_from_preimage_cap 4) = false /\
  trace_safe (nullifier_from_preimage_cap 8) = false /\
  observe (nullifier_from_preimage_cap 0) = [(64, K_REALLOC_TAINTED); (128, K_UPSTREAM_PAD); (128, K_SCRUBBED)].
Proof. repeat split; reflexivity. Qed.

(* Secret::new: whatever the 32 input bytes are, the caller's buffer is all zero afterwards; the result is Ok exactly
   when the four little-endian limbs are below the field order, and then wraps the input. *)
Theorem C33_new_zeroes_source : forall bytes : list Z,
  length bytes = 32%nat ->
  snd (secret_new bytes) = repeat 0 32 /\
  (is_ok (fst (secret_new bytes)) = true <->
   le_limb (sub8 bytes 0) < p /\ le_limb (sub8 bytes 8) < p /\ le_limb (sub8 bytes 16) < p /\ le_limb (sub8 bytes 24) < p) /\
  (forall s, fst (secret_new bytes) = Ok s -> s = bytes).
Proof.
  intros bytes L. split; [rewrite secret_new_zeroes, L; reflexivity|split; [|apply secret_new_wraps]].
  rewrite secret_new_ok, (chunks8_32 bytes L). cbn [forallb]. change INPUTS_GOLDILOCKS_ORDER with p.
  do 3 (rewrite andb_true_iff, Z.ltb_lt; apply and_iff_compat_l). rewrite andb_true_r. apply Z.ltb_lt.
Qed.
Lemma C33_spec_limbs : forall l i, sub8 l i = firstn 8 (skipn i l).
Proof. reflexivity. Qed.
Lemma C33_spec_le_limb : forall b bs, le_limb [] = 0 /\ le_limb (b :: bs) = b + 256 * le_limb bs.
Proof. intros; split; reflexivity. Qed.

(* the call sequence of wormhole/circuit/tests/heap_zeroization.rs, as seen by the allocator scan *)
Example C33_example_from_preimage :
  observe (run_seq [8]) = [(128, K_UPSTREAM_PAD); (72, K_SCRUBBED)] /\
  observe (run_seq [8; 10; 13]) = [(128, K_UPSTREAM_PAD); (72, K_SCRUBBED); (72, K_SCRUBBED); (80, K_SCRUBBED)] /\
  observe (run_seq [22; 24; 27]) = [(64, K_UPSTREAM_PAD); (56, K_SCRUBBED); (64, K_SCRUBBED); (64, K_SCRUBBED)] /\
  observe (run_seq [0]) = [(32, K_SCRUBBED)] /\ observe (run_seq [1]) = [(32, K_SCRUBBED)].
Proof. repeat split; reflexivity. Qed.
(* the checker rejects the three ways the discipline can break *)
Example C33_example_unsafe_traces :
  trace_safe [Alloc BPre 72; WriteSecret BPre; Free BPre] = false /\                     (* no scrub before free *)
  trace_safe [Alloc BPre 32; WriteSecret BPre; Realloc BPre 64; Zero BPre; Free BPre] = false /\   (* growth after the secret *)
  trace_safe [Alloc BSrc 32; WriteSecret BSrc; Free BSrc] = false /\                     (* Secret::new without zeroize *)
  trace_safe [Alloc BPre 72; WriteSecret BPre; Zero BPre; Free BPre] = true.
Proof. repeat split; reflexivity. Qed.
Example C33_example_secret_new :
  secret_new (repeat 255 32) = (Err 1, repeat 0 32) /\ secret_new (repeat 17 32) = (Ok (repeat 17 32), repeat 0 32).
Proof. split; reflexivity. Qed.
