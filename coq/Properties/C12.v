(* C12 - Layout of the public-batch output.

   "For every accepted vector of M private-batch statements, the public-batch output is the aggregator
   address, the asset id, fee, block hash and block number of the first real inner (zeros if none), and
   the constant 2NM.  It is followed by every inner's 2N exit slots and then every inner's N
   nullifiers, each in inner order, so inner i always owns the i-th contiguous segment of each region.
   An all-dummy inner (zero block hash) contributes zeroed slots and zeroed nullifiers."

   Model: Circ/PublicBatch.v ([public_batch] = build_public_batch_constraints of
   wormhole/aggregator/src/public_batch/circuit/circuit_logic.rs, tied to the implementation by the
   differential run of harness/src/bin/wrappers.rs).  Specification: Spec/LeanPort.v ([pub_output],
   [pub_compat], [inner_wf]).  Proofs: Circ/PublicBatchProofs.v.
   [rel H c post] (Circ/Core.v): an arbitrary (adversarial) prover can satisfy the constraints of [c]
   with an output satisfying [post].  n = N (leaves per private batch), M = length inners. *)
From V.Base Require Import Common.
From V.Generated Require Import Constants.
From V.Circ Require Import Field Core PublicBatch PublicBatchProofs.
From V.Spec Require Import LeanPort.

Lemma C12_pin_inner_offsets :
  [PR_OUT_ASSET_ID_OFFSET; PR_OUT_VOLUME_FEE_BPS_OFFSET; PR_OUT_BLOCK_HASH_OFFSET; PR_OUT_BLOCK_NUMBER_OFFSET;
   PR_OUT_HEADER_LEN; PR_OUT_EXIT_SLOT_LEN; PR_LEAF_PI_LEN] = [1; 2; 3; 7; 8; 5; 21].
Proof. reflexivity. Qed.
Lemma C12_pin_public_layout :
  [PU_AGGREGATOR_ADDRESS_START; PU_ASSET_ID_START; PU_VOLUME_FEE_BPS_START; PU_BLOCK_HASH_START;
   PU_BLOCK_NUMBER_START; PU_TOTAL_EXIT_SLOTS_START; PU_HEADER_LEN; PU_AGGREGATOR_ADDRESS_LEN]
  = [0; 4; 5; 6; 10; 11; 12; 4].
Proof. reflexivity. Qed.

Lemma C12_spec_region : forall (l : list Z) s len, region l s len = firstn (Z.to_nat len) (skipn (Z.to_nat s) l).
Proof. reflexivity. Qed.
Lemma C12_spec_inner_wf : forall n q, inner_wf n q <-> zlen q = PR_LEAF_PI_LEN * n + PR_OUT_HEADER_LEN /\ Forall canon q.
Proof. reflexivity. Qed.
Lemma C12_spec_fields : forall q,
  in_asset q = nth 1 q 0 /\ in_fee q = nth 2 q 0 /\ in_bh q = firstn 4 (skipn 3 q) /\ in_bn q = nth 7 q 0.
Proof. repeat split; reflexivity. Qed.
Lemma C12_spec_real_dummy : forall q,
  is_dummy_inner q = list_eqb (firstn 4 (skipn 3 q)) [0; 0; 0; 0] /\ is_real_inner q = negb (is_dummy_inner q).
Proof. split; reflexivity. Qed.
Lemma C12_spec_pub_output : forall n address inners,
  pub_output n address inners =
  address
  ++ (match find is_real_inner inners with
      | Some q => [in_asset q; in_fee q] ++ in_bh q ++ [in_bn q; 2 * n * zlen inners]
      | None => [0; 0] ++ [0; 0; 0; 0] ++ [0; 2 * n * zlen inners]
      end
      ++ concat (map (fun q => if is_dummy_inner q then repeat 0 (Z.to_nat (10 * n)) else region q 8 (10 * n)) inners)
      ++ concat (map (fun q => if is_dummy_inner q then repeat 0 (Z.to_nat (4 * n))
                               else region q (8 + 10 * n) (4 * n)) inners)).
Proof. intros. unfold pub_output, pub_ref. destruct (find is_real_inner inners); rewrite <- ?app_assoc; reflexivity. Qed.

(* the output of every accepted vector *)
Theorem C12_public_batch_output :
  forall (H : list Z -> list Z) (n : Z), 1 <= n ->
  forall (address : list Z) (inners : list (list Z)) (post : list Z -> Prop),
    Forall (inner_wf n) inners ->
    rel H (public_batch n address inners) post -> post (pub_output n address inners).
Proof. intros H n Hn address inners post F. exact (gdet_output H _ _ _ post (gdet_public_batch H n Hn address inners F)). Qed.

(* ... and that output is reached exactly when the vector is compatible (C13) *)
Theorem C12_public_batch_spec :
  forall (H : list Z -> list Z) (n : Z), 1 <= n ->
  forall (address : list Z) (inners : list (list Z)), Forall (inner_wf n) inners ->
  forall post : list Z -> Prop,
    rel H (public_batch n address inners) post <->
    pub_compat inners = true /\ post (pub_output n address inners).
Proof. exact public_batch_spec. Qed.

Theorem C12_output_length :
  forall n address inners, 1 <= n -> length address = 4%nat -> Forall (inner_wf n) inners ->
    zlen (pub_output n address inners) = 12 + 14 * n * zlen inners.
Proof. exact pub_output_zlen. Qed.

(* felts 0..11: address, then asset / fee / block hash / block number of the first real inner, then 2NM *)
Theorem C12_header :
  forall n address inners, 1 <= n -> length address = 4%nat -> Forall (inner_wf n) inners ->
    region (pub_output n address inners) 0 12 =
    address ++ (match find is_real_inner inners with
                | Some q => [nth 1 q 0; nth 2 q 0] ++ firstn 4 (skipn 3 q) ++ [nth 7 q 0]
                | None => [0; 0; 0; 0; 0; 0; 0]
                end) ++ [2 * n * zlen inners].
Proof.
  intros n address inners Hn La F. rewrite pub_output_header by assumption. unfold pub_header, pub_ref.
  destruct (find is_real_inner inners) as [q|]; [|reflexivity].
  change (in_bh q) with (firstn 4 (skipn 3 q)). rewrite <- !app_assoc. reflexivity.
Qed.

(* inner i owns the i-th segment of the exit region and the i-th segment of the nullifier region *)
Theorem C12_segment_i :
  forall n address inners i,
    1 <= n -> length address = 4%nat -> Forall (inner_wf n) inners -> (i < length inners)%nat ->
    region (pub_output n address inners) (12 + Z.of_nat i * (10 * n)) (10 * n)
    = (if is_real_inner (nth i inners []) then region (nth i inners []) 8 (10 * n)
       else repeat 0 (Z.to_nat (10 * n))) /\
    region (pub_output n address inners) (12 + 10 * n * zlen inners + Z.of_nat i * (4 * n)) (4 * n)
    = (if is_real_inner (nth i inners []) then region (nth i inners []) (8 + 10 * n) (4 * n)
       else repeat 0 (Z.to_nat (4 * n))).
Proof.
  intros n address inners i Hn La F Hi. rewrite pub_output_exit_segment, pub_output_null_segment by assumption.
  unfold fwd_region, is_real_inner. destruct (is_dummy_inner (nth i inners [])); split; reflexivity.
Qed.

(* the two regions as a whole *)
Theorem C12_regions :
  forall n address inners, 1 <= n -> length address = 4%nat -> Forall (inner_wf n) inners ->
    region (pub_output n address inners) 12 (10 * n * zlen inners)
    = concat (map (fun q => fwd_region q 8 (10 * n)) inners) /\
    region (pub_output n address inners) (12 + 10 * n * zlen inners) (4 * n * zlen inners)
    = concat (map (fun q => fwd_region q (8 + 10 * n) (4 * n)) inners).
Proof.
  intros n address inners Hn La F.
  exact (conj (pub_output_exit_region n address inners Hn La F) (pub_output_null_region n address inners Hn La F)).
Qed.

Theorem C12_dummy_inner_zeroed :
  forall n address inners i,
    1 <= n -> length address = 4%nat -> Forall (inner_wf n) inners -> (i < length inners)%nat ->
    firstn 4 (skipn 3 (nth i inners [])) = [0; 0; 0; 0] ->
    region (pub_output n address inners) (12 + Z.of_nat i * (10 * n)) (10 * n) = repeat 0 (Z.to_nat (10 * n)) /\
    region (pub_output n address inners) (12 + 10 * n * zlen inners + Z.of_nat i * (4 * n)) (4 * n)
    = repeat 0 (Z.to_nat (4 * n)).
Proof.
  intros n address inners i Hn La F Hi Z4. destruct (C12_segment_i n address inners i Hn La F Hi) as [E1 E2].
  rewrite E1, E2. unfold is_real_inner, is_dummy_inner.
  change (in_bh (nth i inners [])) with (firstn 4 (skipn 3 (nth i inners []))). rewrite Z4. split; reflexivity.
Qed.

(* non-vacuity: N = 2, M = 3 *)
Example C12_ex_H (l : list Z) : list Z := [1 + (fold_left Z.add l 0) mod 1000; 2; 3; 4].
(* an inner statement: [2N; asset; fee; bh(4); bn; 20 exit felts; 8 nullifier felts; 14 padding felts] *)
Example C12_ex_inner (asset fee : Z) (bh : list Z) (bn base : Z) : list Z :=
  [4; asset; fee] ++ bh ++ [bn] ++ map (fun k => base + Z.of_nat k) (seq 0 28) ++ repeat 0 14.
Example C12_ex_address : list Z := [101; 102; 103; p - 1].
(* a dummy carrying garbage, then two real inners with the same (asset, fee, block hash) *)
Example C12_ex_inners : list (list Z) :=
  [C12_ex_inner 9 9 [0; 0; 0; 0] 5 5000; C12_ex_inner 7 25 [11; 12; 13; 14] 77 1000;
   C12_ex_inner 7 25 [11; 12; 13; 14] 78 2000].
Example C12_ex_wf : Forall (inner_wf 2) C12_ex_inners /\ length C12_ex_address = 4%nat /\ pub_compat C12_ex_inners = true.
Proof. split; [apply inners_wfb_spec; vm_compute; reflexivity|split; reflexivity]. Qed.
Example C12_ex_output :
  pub_output 2 C12_ex_address C12_ex_inners =
  [101; 102; 103; p - 1; 7; 25; 11; 12; 13; 14; 77; 12]
  ++ repeat 0 20 ++ map (fun k => 1000 + Z.of_nat k) (seq 0 20) ++ map (fun k => 2000 + Z.of_nat k) (seq 0 20)
  ++ repeat 0 8 ++ map (fun k => 1020 + Z.of_nat k) (seq 0 8) ++ map (fun k => 2020 + Z.of_nat k) (seq 0 8).
Proof. vm_compute. reflexivity. Qed.
Example C12_ex_accepted :
  rel C12_ex_H (public_batch 2 C12_ex_address C12_ex_inners) (fun o => o = pub_output 2 C12_ex_address C12_ex_inners) /\
  hon C12_ex_H (public_batch 2 C12_ex_address C12_ex_inners) = Some (pub_output 2 C12_ex_address C12_ex_inners).
Proof.
  split; [|vm_compute; reflexivity].
  apply (public_batch_spec C12_ex_H 2 ltac:(lia) C12_ex_address C12_ex_inners (proj1 C12_ex_wf)).
  exact (conj (proj2 (proj2 C12_ex_wf)) eq_refl).
Qed.
(* all inners dummy: zero header references, everything zeroed *)
Example C12_ex_all_dummy :
  pub_output 2 C12_ex_address [C12_ex_inner 9 9 [0; 0; 0; 0] 5 5000; C12_ex_inner 8 8 [0; 0; 0; 0] 6 6000]
  = C12_ex_address ++ [0; 0; 0; 0; 0; 0; 0; 8] ++ repeat 0 56.
Proof. vm_compute. reflexivity. Qed.
