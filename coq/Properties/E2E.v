(* E2E - The three circuit layers composed: statements about the whole system.

   For ALL leaf assignments, all batch sizes, all (adversarial) witnesses of every layer, every hash function with
   4 canonical output felts.  The per-layer theorems (C01-C04 leaf, C06-C09 private batch, C12/C13/C36 public batch,
   C11 recursion) are stated over well-formed child STATEMENTS; here those premises are discharged by acceptance of
   the layer below.  The only assumptions left are
     - the shape of the hash ([hash_wf H]: 4 canonical felts),
     - for the full circuits (E2E_full_private_batch, E2E_full_public_batch): knowledge soundness of the proof
       system, as an explicit premise ([leaf_knowledge_sound], [private_batch_knowledge_sound]),
     - for the block number (E2E_block_number_consistent, E2E_perm_header_unconditional): collision freedom of H on
       the header preimages of the real leaves of the batch ([header_collision_free]),
     - for the nullifiers of the public output (E2E_two_layers_nullifiers): no published nullifier of a batch with a
       real leaf is the zero digest ([nullifiers_nonzero]); and for E2E_dummy_notions_agree: H never returns the zero
       digest, which implies the former (E2E_nullifiers_nonzero_of_hash).

   Vocabulary (Circ/EndToEnd.v; spelled out below by reflexivity lemmas)
     i : LeafIn                 an assignment of ALL targets of the leaf circuit (public and private)
     wf_in i                    every target holds a field element, every vector has its length
     rel H c post               some witness (hint wires chosen adversarially) satisfies every constraint of c
     real_leaf i                the statement's block hash is not [0;0;0;0] - the WRAPPER's notion of a real slot
     is_dummy_stmt i            the LEAF circuit's notion of a dummy: block hash zero AND both outputs zero
     real_out_total / real_in_total / real_net_deposits    sums over the real leaves of out1+out2 / input / input*(10000-fee)
     out_exit_slots n out       the 2n (sum, account) slots of a private-batch output;  out_nullifiers n out  its n nullifiers
     batch_accepted H n b o     o is the output of a satisfying witness of the n-slot private-batch wrapper over
                                leaf-accepted assignments b = (assignments, dummy-nullifier preimages)

   Proofs: Circ/EndToEnd.v. *)
From Coq Require Import Permutation Sorted.
From V.Base Require Import Common.
From V.Generated Require Import Constants.
From V.Circ Require Import Core Sorting Leaf LeafProofs PrivateBatch PrivateBatchProofs PublicBatch TwoLayer Recursion EndToEnd.
From V.Spec Require Import LeanPort.
Import ListNotations.

Lemma E2E_pin_layout :
  [PR_LEAF_PI_LEN; PR_OUT_HEADER_LEN; PR_OUT_EXIT_SLOT_LEN; PU_HEADER_LEN; MAX_PROOF_COUNT] = [21; 8; 5; 12; 64].
Proof. reflexivity. Qed.
Lemma E2E_pin_private_header :
  [PR_OUT_ASSET_ID_OFFSET; PR_OUT_VOLUME_FEE_BPS_OFFSET; PR_OUT_BLOCK_HASH_OFFSET; PR_OUT_BLOCK_NUMBER_OFFSET] = [1; 2; 3; 7].
Proof. reflexivity. Qed.
Lemma E2E_pin_public_header :
  [PU_ASSET_ID_START; PU_VOLUME_FEE_BPS_START; PU_BLOCK_HASH_START; PU_BLOCK_NUMBER_START; PU_TOTAL_EXIT_SLOTS_START]
  = [4; 5; 6; 10; 11].
Proof. reflexivity. Qed.

Lemma E2E_spec_real_leaf i : real_leaf i = negb (list_eqb (li_block_hash i) [0; 0; 0; 0]).
Proof. reflexivity. Qed.
Lemma E2E_spec_zero_hash_preimage_found H pre : zero_hash_preimage_found H pre <-> H pre = [0; 0; 0; 0].
Proof. reflexivity. Qed.
Lemma E2E_spec_totals i r :
  real_out_total (i :: r) = (if real_leaf i then li_out1 i + li_out2 i else 0) + real_out_total r /\
  real_in_total (i :: r) = (if real_leaf i then li_input_amount i else 0) + real_in_total r /\
  real_net_deposits (i :: r) = (if real_leaf i then li_input_amount i * (10000 - li_fee i) else 0) + real_net_deposits r /\
  real_out_total [] = 0 /\ real_in_total [] = 0 /\ real_net_deposits [] = 0.
Proof. repeat split; reflexivity. Qed.
Lemma E2E_spec_out_nullifiers n out : out_nullifiers n out = chunk4 (firstn (4 * n) (skipn (8 + 10 * n) out)).
Proof. reflexivity. Qed.
Lemma E2E_spec_slot_nullifier H i u :
  slot_nullifier H (i, u) =
  if real_leaf i then H (H (NULLIFIER_SALT_FELTS ++ li_null_secret i ++ li_null_tc i)) else H (H u).
Proof. reflexivity. Qed.
Lemma E2E_spec_deposit_bound H i bh :
  deposit_bound H i bh <->
  (* the account of the deposit leaf is derived from the nullifier's secret *)
  li_to_account i = H (H (UNSPENDABLE_SALT_FELTS ++ li_null_secret i)) /\
  (* the deposit leaf (account, count, asset, amount) - with the nullifier's count - hashes up the path to the tree root *)
  li_tree_root i =
    fold_insert H (H (li_to_account i ++ li_null_tc i ++ [li_asset i; li_input_amount i]))
                (firstn (Z.to_nat (li_depth i)) (combine (li_siblings i) (li_positions i))) /\
  (* that root is part of the header whose hash is bh *)
  bh = H (li_parent_hash i ++ [li_block_number i] ++ li_state_root i ++ li_extrinsics_root i
          ++ li_tree_root i ++ li_digest i) /\
  li_block_hash i = bh.
Proof. reflexivity. Qed.
Lemma E2E_spec_header_collision_free H is :
  header_collision_free H is <->
  forall i j, In i is -> In j is -> real_leaf i = true -> real_leaf j = true ->
              H (header_preimage i) = H (header_preimage j) -> header_preimage i = header_preimage j.
Proof. reflexivity. Qed.
Lemma E2E_spec_batch_accepted H n (b : batch) o :
  batch_accepted H n b o <->
  zlen (fst b) = n /\ length (snd b) = length (fst b) /\
  Forall wf_in (fst b) /\ Forall (fun i => rel H (leaf_circuit i) (fun _ => True)) (fst b) /\
  rel H (private_batch (map leaf_public_inputs (fst b)) (snd b)) (fun x => x = o).
Proof. reflexivity. Qed.
Lemma E2E_spec_all_leaves (batches : list batch) : all_leaves batches = concat (map fst batches).
Proof. reflexivity. Qed.

(* leaf acceptance discharges [leaf_wf]; the two dummy notions *)
Theorem E2E_leaf_sat_implies_leaf_wf :
  forall (H : list Z -> list Z), hash_wf H -> forall i, wf_in i ->
  forall post, rel H (leaf_circuit i) post -> leaf_wf (leaf_public_inputs i).
Proof. exact leaf_sat_implies_leaf_wf. Qed.

(* a slot the wrapper counts as real is not a leaf dummy: every binding of the leaf circuit applies to it *)
Theorem E2E_wrapper_real_is_leaf_real :
  forall i, wf_in i -> is_dummy_pb (leaf_public_inputs i) = false -> is_dummy_stmt i = false.
Proof.
  intros i W D. apply (real_leaf_not_dummy_stmt i W). rewrite (is_dummy_pb_leaf i W) in D.
  apply negb_false_iff in D. exact D.
Qed.
Theorem E2E_leaf_dummy_is_wrapper_dummy :
  forall i, wf_in i -> is_dummy_stmt i = true -> is_dummy_pb (leaf_public_inputs i) = true.
Proof.
  intros i W D. rewrite (is_dummy_pb_leaf i W). destruct (real_leaf i) eqn:R; [|reflexivity].
  rewrite (real_leaf_not_dummy_stmt i W R) in D. discriminate D.
Qed.

(* a leaf-accepted statement the wrapper reads as a dummy (zero block hash) is a full leaf dummy (outputs zero), or
   it has a non-zero output and then its header binding exhibits a preimage of the zero digest *)
Theorem E2E_wrapper_dummy_bridge :
  forall (H : list Z -> list Z), hash_wf H -> forall i, wf_in i ->
  forall post, rel H (leaf_circuit i) post -> is_dummy_pb (leaf_public_inputs i) = true ->
    (is_dummy_stmt i = true /\ li_out1 i = 0 /\ li_out2 i = 0) \/
    (is_dummy_stmt i = false /\ (li_out1 i <> 0 \/ li_out2 i <> 0) /\
     zero_hash_preimage_found H (header_preimage i)).
Proof. exact wrapper_dummy_bridge. Qed.
Theorem E2E_dummy_notions_agree :
  forall (H : list Z -> list Z), hash_wf H -> forall i, wf_in i ->
  forall post, (forall l, H l <> zero4) -> rel H (leaf_circuit i) post ->
    is_dummy_pb (leaf_public_inputs i) = is_dummy_stmt i.
Proof.
  intros H Hwf i W post NZ R. destruct (is_dummy_pb (leaf_public_inputs i)) eqn:D.
  - destruct (wrapper_dummy_bridge H Hwf i W post R D) as [(Ds & _)|(_ & _ & Z0)]; [symmetry; exact Ds|].
    exfalso. exact (NZ _ Z0).
  - symmetry. exact (E2E_wrapper_real_is_leaf_real i W D).
Qed.

(* one private batch over accepted leaves: value *)
Theorem E2E_private_value_bound :
  forall (H : list Z -> list Z), hash_wf H ->
  forall (is : list LeafIn) (us : list (list Z)) (out : list Z),
    (1 <= length is <= 64)%nat ->
    Forall wf_in is ->
    Forall (fun i => rel H (leaf_circuit i) (fun _ => True)) is ->            (* a satisfying witness per leaf *)
    length us = length is ->
    rel H (private_batch (map leaf_public_inputs is) us) (fun o => o = out) ->  (* ... and for the batch *)
    let slots := out_exit_slots (length is) out in
    (* the exit amounts add up to the outputs of the real leaves *)
    slotsTotal slots = real_out_total is /\
    (* every exit amount is a 32-bit value *)
    Forall (fun s => 0 <= fst s < two32) slots /\
    (* every real leaf has the asset, fee and block hash shown in the header of the output *)
    (forall i, In i is -> real_leaf i = true ->
       li_asset i = nth 1 out 0 /\ li_fee i = nth 2 out 0 /\ li_block_hash i = firstn 4 (skipn 3 out)) /\
    nth 2 out 0 <= 10000 /\
    (* the batch never pays out more than the deposits minus the fee *)
    10000 * slotsTotal slots <= real_net_deposits is /\
    real_net_deposits is = (10000 - nth 2 out 0) * real_in_total is.
Proof.
  intros H Hwf is us out Hn W R Lu Rb.
  apply (accepted_value H Hwf (zlen is) ltac:(unfold zlen; lia) (is, us) out). repeat split; assumption.
Qed.

(* ... and nullifiers *)
Theorem E2E_nullifiers_are_bound :
  forall (H : list Z -> list Z), hash_wf H ->
  forall (is : list LeafIn) (us : list (list Z)) (out : list Z),
    (1 <= length is <= 64)%nat ->
    Forall wf_in is ->
    Forall (fun i => rel H (leaf_circuit i) (fun _ => True)) is ->
    length us = length is ->
    rel H (private_batch (map leaf_public_inputs is) us) (fun o => o = out) ->
    let nulls := out_nullifiers (length is) out in
    (* the published nullifiers are, as a multiset, one per slot; in ascending order *)
    Permutation nulls (map (slot_nullifier H) (combine is us)) /\
    StronglySorted digest_le nulls /\
    (* each one is the nullifier of a deposit proven in the reference block's tree, or H(H(u)) of a dummy slot *)
    (forall d, In d nulls ->
       (exists i, In i is /\ real_leaf i = true /\
                  d = H (H (NULLIFIER_SALT_FELTS ++ li_null_secret i ++ li_null_tc i)) /\
                  deposit_bound H i (firstn 4 (skipn 3 out))) \/
       (exists i u, In (i, u) (combine is us) /\ real_leaf i = false /\ d = H (H u))) /\
    (* the real ones are pairwise distinct *)
    NoDup (map (fun i => H (H (NULLIFIER_SALT_FELTS ++ li_null_secret i ++ li_null_tc i))) (filter real_leaf is)).
Proof.
  intros H Hwf is us out Hn W R Lu Rb.
  apply (accepted_nullifiers H Hwf (zlen is) ltac:(unfold zlen; lia) (is, us) out). repeat split; assumption.
Qed.

(* M private batches under one public batch: value *)
Theorem E2E_two_layers_value :
  forall (H : list Z -> list Z), hash_wf H ->
  forall n : Z, 1 <= n <= 64 ->
  forall (batches : list batch) (outs : list (list Z)) (address pout : list Z),
    Forall2 (batch_accepted H n) batches outs ->
    length address = 4%nat ->
    rel H (public_batch n address outs) (fun o => o = pout) ->
    let total := zsum (map (fun k => nth (12 + 5 * k) pout 0) (seq 0 (Z.to_nat (2 * n * zlen batches)))) in
    (* the 2 n M exit amounts of the public output add up to the outputs of all real leaves of all batches *)
    total = real_out_total (all_leaves batches) /\
    (* one asset, one fee, one block hash among all real leaves: those of the public header *)
    (forall i, In i (all_leaves batches) -> real_leaf i = true ->
       li_asset i = nth 4 pout 0 /\ li_fee i = nth 5 pout 0 /\ li_block_hash i = firstn 4 (skipn 6 pout)) /\
    nth 5 pout 0 <= 10000 /\
    10000 * total <= real_net_deposits (all_leaves batches) /\
    real_net_deposits (all_leaves batches) = (10000 - nth 5 pout 0) * real_in_total (all_leaves batches).
Proof. exact two_layers_value. Qed.

(* ... and nullifiers.  [nullifiers_nonzero]: no published nullifier of a real batch is the zero digest (the public layer
   zero-fills the regions of dummy inners, so non-zero = forwarded); it holds whenever H never returns the zero digest *)
Lemma E2E_spec_nullifiers_nonzero H (batches : list batch) :
  nullifiers_nonzero H batches <->
  forall b iu, In b batches -> existsb real_leaf (fst b) = true -> In iu (combine (fst b) (snd b)) ->
               slot_nullifier H iu <> zero4.
Proof. reflexivity. Qed.
Theorem E2E_nullifiers_nonzero_of_hash :
  forall H (batches : list batch), (forall l, H l <> zero4) -> nullifiers_nonzero H batches.
Proof. exact nullifiers_nonzero_of_hash. Qed.
Theorem E2E_two_layers_nullifiers :
  forall (H : list Z -> list Z), hash_wf H ->
  forall n : Z, 1 <= n <= 64 ->
  forall (batches : list batch) (outs : list (list Z)) (address pout : list Z),
    Forall2 (batch_accepted H n) batches outs ->
    length address = 4%nat ->
    rel H (public_batch n address outs) (fun o => o = pout) ->
    nullifiers_nonzero H batches ->
    let M := zlen batches in
    let nulls := filter nonzero4 (chunk4 (region pout (12 + 10 * n * M) (4 * n * M))) in
    (* the non-zero nullifiers of the public output are, as a multiset, the per-slot nullifiers of the batches
       that contain a real leaf *)
    Permutation nulls
      (concat (map (fun b : batch => map (slot_nullifier H) (combine (fst b) (snd b)))
                   (filter (fun b : batch => existsb real_leaf (fst b)) batches))) /\
    (* each one belongs to a deposit proven in the tree of THE block of the public header, or is H(H(u)) of a dummy slot *)
    (forall d, In d nulls ->
       (exists i, In i (all_leaves batches) /\ real_leaf i = true /\
                  d = H (H (NULLIFIER_SALT_FELTS ++ li_null_secret i ++ li_null_tc i)) /\
                  deposit_bound H i (firstn 4 (skipn 6 pout))) \/
       (exists b i u, In b batches /\ existsb real_leaf (fst b) = true /\ In (i, u) (combine (fst b) (snd b)) /\
                      real_leaf i = false /\ d = H (H u))).
Proof. exact two_layers_nullifiers. Qed.

Theorem E2E_block_number_consistent :
  forall (H : list Z -> list Z), hash_wf H ->
  forall is : list LeafIn,
    Forall wf_in is -> Forall (fun i => rel H (leaf_circuit i) (fun _ => True)) is ->
    header_collision_free H is ->
    bn_determined (map leaf_public_inputs is).
Proof. intros H Hwf is W R. exact (block_number_consistent H Hwf is (Forall_and W R)). Qed.

(* hence C09_perm_header with its premise [bn_determined] discharged from collision freedom of H on the header
   preimages: the same (assignment, preimage) pairs in another slot order are accepted too and every satisfying witness
   shows the same 8 header felts *)
Theorem E2E_perm_header_unconditional :
  forall (H : list Z -> list Z) (is is' : list LeafIn) (us us' : list (list Z)) (out : list Z),
    hash_wf H -> (1 <= length is <= 64)%nat ->
    Forall wf_in is -> Forall (fun i => rel H (leaf_circuit i) (fun _ => True)) is ->
    length us = length is -> length us' = length is' ->
    Permutation (combine is us) (combine is' us') ->
    header_collision_free H is ->
    rel H (private_batch (map leaf_public_inputs is) us) (fun o => o = out) ->
    (exists out', rel H (private_batch (map leaf_public_inputs is') us') (fun o => o = out')) /\
    (forall out', rel H (private_batch (map leaf_public_inputs is') us') (fun o => o = out') ->
                  firstn 8 out' = firstn 8 out).
Proof.
  intros H is is' us us' out Hwf Hn W R Lu Lu' P Inj Rb.
  apply (perm_header_unconditional H Hwf (zlen is) ltac:(unfold zlen; lia) (is, us) out); try assumption.
  repeat split; assumption.
Qed.

(* the full circuits (wrapper + recursive verification) *)
Lemma E2E_spec_leaf_knowledge_sound (VK PROOF : Type) (Verify : VK -> list Z -> PROOF -> bool) H leaf_vk :
  leaf_knowledge_sound VK PROOF Verify H leaf_vk <->
  forall pis pf, Verify leaf_vk pis pf = true ->
    exists i, wf_in i /\ leaf_public_inputs i = pis /\ rel H (leaf_circuit i) (fun _ => True).
Proof. reflexivity. Qed.
Lemma E2E_spec_private_batch_knowledge_sound (VK PROOF : Type) (Verify : VK -> list Z -> PROOF -> bool) H leaf_vk pb_vk n :
  private_batch_knowledge_sound VK PROOF Verify H leaf_vk pb_vk n <->
  forall pis pf, Verify pb_vk pis pf = true ->
    exists children pre, length pre = length children /\
      private_batch_sat VK PROOF Verify H (mkPB leaf_vk n) children pre pis.
Proof. reflexivity. Qed.
Lemma E2E_spec_value_statement is out :
  value_statement is out <->
  let slots := out_exit_slots (length is) out in
  slotsTotal slots = real_out_total is /\
  Forall (fun s => 0 <= fst s < two32) slots /\
  (forall i, In i is -> real_leaf i = true ->
     li_asset i = nth 1 out 0 /\ li_fee i = nth 2 out 0 /\ li_block_hash i = firstn 4 (skipn 3 out)) /\
  nth 2 out 0 <= 10000 /\
  10000 * slotsTotal slots <= real_net_deposits is /\
  real_net_deposits is = (10000 - nth 2 out 0) * real_in_total is.
Proof. reflexivity. Qed.
Lemma E2E_spec_nullifier_statement H is us out :
  nullifier_statement H is us out <->
  let nulls := out_nullifiers (length is) out in
  Permutation nulls (map (slot_nullifier H) (combine is us)) /\
  StronglySorted digest_le nulls /\
  (forall d, In d nulls ->
     (exists i, In i is /\ real_leaf i = true /\
                d = H (H (NULLIFIER_SALT_FELTS ++ li_null_secret i ++ li_null_tc i)) /\
                deposit_bound H i (firstn 4 (skipn 3 out))) \/
     (exists i u, In (i, u) (combine is us) /\ real_leaf i = false /\ d = H (H u))) /\
  NoDup (map (fun i => H (H (NULLIFIER_SALT_FELTS ++ li_null_secret i ++ li_null_tc i))) (filter real_leaf is)).
Proof. reflexivity. Qed.
Lemma E2E_spec_two_layer_statement n M leaves pout :
  two_layer_statement n M leaves pout <->
  let total := zsum (map (fun k => nth (12 + 5 * k) pout 0) (seq 0 (Z.to_nat (2 * n * M)))) in
  total = real_out_total leaves /\
  (forall i, In i leaves -> real_leaf i = true ->
     li_asset i = nth 4 pout 0 /\ li_fee i = nth 5 pout 0 /\ li_block_hash i = firstn 4 (skipn 6 pout)) /\
  nth 5 pout 0 <= 10000 /\
  10000 * total <= real_net_deposits leaves /\
  real_net_deposits leaves = (10000 - nth 5 pout 0) * real_in_total leaves.
Proof. reflexivity. Qed.

(* the private-batch circuit built over the leaf key: its satisfiability (children verified under the constant key +
   wrapper constraints) implies the conclusions of E2E_private_value_bound and E2E_nullifiers_are_bound
   ([value_statement], [nullifier_statement]) for SOME leaf assignments with exactly the children's public inputs.
   [length pre = length children]: the circuit has one dummy-preimage target per slot. *)
Theorem E2E_full_private_batch :
  forall (VK PROOF : Type) (Verify : VK -> list Z -> PROOF -> bool) (H : list Z -> list Z), hash_wf H ->
  forall (leaf_vk : VK) (n : Z) (c : private_batch_circuit VK) (children : list (@child PROOF))
         (pre : list (list Z)) (out : list Z),
    leaf_knowledge_sound VK PROOF Verify H leaf_vk ->
    private_batch_new VK leaf_vk 21 n = Ok c ->
    length pre = length children ->
    private_batch_sat VK PROOF Verify H c children pre out ->
    exists is, map leaf_public_inputs is = map ch_pis children /\
               Forall wf_in is /\ Forall (fun i => rel H (leaf_circuit i) (fun _ => True)) is /\
               value_statement is out /\ nullifier_statement H is pre out.
Proof.
  intros VK PROOF Verify H Hwf leaf_vk n c children pre out KS New Lp Sat.
  destruct (full_private_accepted VK PROOF Verify H leaf_vk n c children pre out KS New Lp Sat) as (Rn & is & E & A).
  exists is. split; [exact E|]. split; [apply A|]. split; [apply A|].
  split; [exact (accepted_value H Hwf n Rn (is, pre) out A)|exact (accepted_nullifiers H Hwf n Rn (is, pre) out A)].
Qed.

(* the public-batch circuit built over the private-batch key, itself built over the leaf key: the conclusion of
   E2E_two_layers_value ([two_layer_statement]) *)
Theorem E2E_full_public_batch :
  forall (VK PROOF : Type) (Verify : VK -> list Z -> PROOF -> bool) (H : list Z -> list Z), hash_wf H ->
  forall (leaf_vk pb_vk : VK) (n m : Z) (cpub : public_batch_circuit VK) (address : list Z)
         (children : list (@child PROOF)) (pout : list Z),
    leaf_knowledge_sound VK PROOF Verify H leaf_vk ->
    private_batch_knowledge_sound VK PROOF Verify H leaf_vk pb_vk n ->
    0 <= n ->
    public_batch_new VK pb_vk (21 * n + 8) m n = Ok cpub ->
    length address = 4%nat ->
    public_batch_sat VK PROOF Verify H cpub address children pout ->
    exists batches, Forall2 (batch_accepted H n) batches (map ch_pis children) /\
                    two_layer_statement n m (all_leaves batches) pout.
Proof.
  intros VK PROOF Verify H Hwf leaf_vk pb_vk n m cpub address children pout KS KSb N0 New La Sat.
  destruct (full_public_accepted VK PROOF Verify H Hwf leaf_vk pb_vk n m cpub address children pout KS KSb N0 New Sat)
    as (Rn & batches & F2 & <- & R).
  exists batches. split; [exact F2|]. exact (two_layers_value H Hwf n Rn batches _ address pout F2 La R).
Qed.

(* both disjuncts of E2E_wrapper_dummy_bridge occur: a full leaf dummy; and, for a hash that returns the zero digest on one
   input, an ACCEPTED statement with zero block hash and outputs 40 + 9 which the wrapper reads as a dummy *)
Example E2E_ex_leaf_dummy :
  (wf_in e2e_dummy /\ rel e2e_H (leaf_circuit e2e_dummy) (fun _ => True)) /\
  is_dummy_pb (leaf_public_inputs e2e_dummy) = true /\ is_dummy_stmt e2e_dummy = true.
Proof. split; [exact e2e_dummy_ok|vm_compute; split; reflexivity]. Qed.
Example E2E_ex_zero_hash_preimage :
  hash_wf e2e_H1 /\ wf_in ex_zero_hash_with_output /\
  rel e2e_H1 (leaf_circuit ex_zero_hash_with_output) (fun _ => True) /\
  is_dummy_pb (leaf_public_inputs ex_zero_hash_with_output) = true /\
  is_dummy_stmt ex_zero_hash_with_output = false /\
  zero_hash_preimage_found e2e_H1 (header_preimage ex_zero_hash_with_output).
Proof.
  split; [exact e2e_H1_wf|].
  destruct (accepted_by_computation e2e_H1 ex_zero_hash_with_output e2e_H1_wf) as (W & R);
    [apply wf_inb_sound; vm_compute; reflexivity|vm_compute; reflexivity|].
  split; [exact W|]. split; [exact R|]. vm_compute. repeat split; reflexivity.
Qed.

(* one private batch: 2 slots (real leaf: in 50, out 40 + 9, fee 10 bps; dummy leaf).  With a single real leaf
   [header_collision_free] holds trivially *)
Example E2E_ex_private_hypotheses :
  hash_wf e2e_H /\ (1 <= length e2e_is <= 64)%nat /\ Forall wf_in e2e_is /\
  Forall (fun i => rel e2e_H (leaf_circuit i) (fun _ => True)) e2e_is /\ length e2e_us = length e2e_is /\
  rel e2e_H (private_batch (map leaf_public_inputs e2e_is) e2e_us) (fun o => o = e2e_out).
Proof.
  destruct e2e_batch_accepted as (_ & Lu & W & R & Rb). cbn [fst snd] in *.
  split; [exact e2e_H_wf|]. split; [cbn; lia|]. auto.
Qed.
Example E2E_ex_private_values :
  map real_leaf e2e_is = [true; false] /\
  out_exit_slots 2 e2e_out = [(40, [51; 52; 53; 54]); (9, [61; 62; 63; 64]); (0, zero4); (0, zero4)] /\
  real_out_total e2e_is = 49 /\ real_in_total e2e_is = 50 /\ real_net_deposits e2e_is = 499500 /\
  nth 2 e2e_out 0 = 10 /\
  out_nullifiers 2 e2e_out = [e2e_H (e2e_H [2; 2; 2; 2]); nullifier_of e2e_H e2e_real].
Proof. rewrite e2e_out_eq. vm_compute. repeat split; reflexivity. Qed.
Example E2E_ex_collision_free_and_permuted :
  header_collision_free e2e_H e2e_is /\
  Permutation (combine e2e_is e2e_us) (combine (rev e2e_is) (rev e2e_us)).
Proof.
  split; [|apply perm_swap]. intros i j Ii Ij Ri Rj _.
  assert (X : forall k, In k e2e_is -> real_leaf k = true -> k = e2e_real).
  { intros k [<-|[<-|[]]] Rk; [reflexivity|]. vm_compute in Rk. discriminate Rk. }
  rewrite (X i Ii Ri), (X j Ij Rj). reflexivity.
Qed.

(* two layers: N = 2, M = 3: (real, dummy), (dummy, real), (dummy, dummy) *)
Example E2E_ex_public_hypotheses :
  hash_wf e2e_H /\ 1 <= 2 <= 64 /\ Forall2 (batch_accepted e2e_H 2) e2e_batches e2e_outs /\
  length e2e_address = 4%nat /\
  rel e2e_H (public_batch 2 e2e_address e2e_outs) (fun o => o = e2e_pout).
Proof.
  split; [exact e2e_H_wf|]. split; [lia|]. split; [exact e2e_batches_accepted|]. split; [reflexivity|].
  apply (public_accepted_by_computation e2e_H 2 e2e_batches); [exact e2e_H_wf|lia|exact e2e_batches_accepted|].
  vm_compute. reflexivity.
Qed.
Example E2E_ex_public_values :
  map (fun k => nth (12 + 5 * k) e2e_pout 0) (seq 0 12) = [40; 9; 0; 0; 0; 0; 30; 5; 0; 0; 0; 0] /\
  real_out_total (all_leaves e2e_batches) = 84 /\ real_in_total (all_leaves e2e_batches) = 100 /\
  real_net_deposits (all_leaves e2e_batches) = 999000 /\ nth 5 e2e_pout 0 = 10.
Proof. rewrite e2e_pout_eq. vm_compute. repeat split; reflexivity. Qed.

(* the same deposit spent in two different private batches: accepted by both layers, listed twice, paid twice.
   Distinctness of nullifiers is a circuit property only inside one private batch (E2E_nullifiers_are_bound); across batches it is the
   chain's settled-nullifier set (documented in public_batch/circuit/circuit_logic.rs) *)
Example E2E_ex_public_nullifiers_and_cross_batch_repeat :
  nullifiers_nonzero e2e_H e2e_batches /\
  filter nonzero4 (chunk4 (region e2e_pout (12 + 10 * 2 * 3) (4 * 2 * 3)))
  = [e2e_H (e2e_H [2; 2; 2; 2]); nullifier_of e2e_H e2e_real; e2e_H (e2e_H [1; 1; 1; 1]); nullifier_of e2e_H e2e_real2] /\
  nullifier_of e2e_H e2e_real = nullifier_of e2e_H e2e_real2 /\
  real_out_total (all_leaves e2e_batches) = 84 /\ li_input_amount e2e_real = 50.
Proof.
  split; [apply nullifiers_nonzero_of_hash; intros l E; inversion E|].
  split; [rewrite e2e_pout_eq; vm_compute; reflexivity|]. split; [vm_compute; reflexivity|].
  split; [apply E2E_ex_public_values|reflexivity].
Qed.

(* the full circuits: a proof system in which exactly the statements above verify meets both premises, and both are satisfied *)
Example E2E_ex_full_private_hypotheses :
  hash_wf e2e_H /\ leaf_knowledge_sound bool unit e2e_verify e2e_H true /\
  private_batch_new bool true 21 2 = Ok (mkPB true 2) /\ length e2e_us = length e2e_children /\
  private_batch_sat bool unit e2e_verify e2e_H (mkPB true 2) e2e_children e2e_us e2e_out.
Proof.
  split; [exact e2e_H_wf|]. split; [exact e2e_leaf_ks|]. split; [reflexivity|]. split; [reflexivity|exact e2e_private_sat].
Qed.
Example E2E_ex_full_public_hypotheses :
  private_batch_knowledge_sound bool unit e2e_verify e2e_H true false 2 /\
  public_batch_new bool false (21 * 2 + 8) 1 2 = Ok (mkPUB false 1 2) /\ length e2e_address = 4%nat /\
  public_batch_sat bool unit e2e_verify e2e_H (mkPUB false 1 2) e2e_address [mkChild e2e_out tt] e2e_pout1.
Proof.
  split; [exact e2e_pb_ks|]. split; [reflexivity|]. split; [reflexivity|].
  unfold public_batch_sat. split; [reflexivity|]. split.
  - apply Forall_cons; [|apply Forall_nil]. cbn [pub_vk ch_pis ch_proof]. unfold e2e_verify. apply list_eqb_refl.
  - cbn [pub_n map ch_pis].
    apply (public_accepted_by_computation e2e_H 2 [(e2e_is, e2e_us)]); [exact e2e_H_wf|lia| |].
    + constructor; [exact e2e_batch_accepted|constructor].
    + rewrite e2e_out_eq. reflexivity.
Qed.
