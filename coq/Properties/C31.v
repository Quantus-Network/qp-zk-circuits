(* C31 - For any list of digests with canonical limbs, the sorting gadget's output is the ascending
   lexicographic permutation of the input, with limb 0 most significant.  No witness yields an output
   that is not a permutation of the input or not in that order.

   Gadget: sort_digests4, common/src/gadgets.rs:285 (odd-even transposition network, n rounds over n
   digests, 4 limbs split into 8 canonical 32-bit halves at ingress, comparators halves8_lt + select,
   recombination at egress); transcription: Circ/Gadgets.v; semantics: Circ/Core.v
     rel H c post   some witness (adversarial prover) satisfies every constraint of c and its output satisfies post
     hon H c        the output computed by the honest witness generators
     refines H c    rel H c post <-> post (honest output)   -- no witness freedom
   Proofs: Circ/SortNet.v (pure network, for every n: permutation; sortedness by the 0-1 principle and an
   invariant on the positions of the ones of a 0-1 input, round by round),
   Circ/Sorting.v (linking), Circ/GadgetsProofs.v (split_canonical_u32_halves, halves8_lt).
   Vocabulary:
     digest_ltb a b   strict lexicographic order of the limb lists as integers, limb 0 first (C31_spec_order)
     digest_le a b    digest_ltb b a = false
     sort_spec        insertion sort for digest_ltb: THE ascending permutation (C31_spec_unique)
   The sortedness statements carry the bound n <= 64 = MAX_PROOF_COUNT, the largest batch the Rust code
   builds (private_batch circuit_logic.rs: n = num_leaf_proofs, validated against MAX_PROOF_COUNT),
   although SortNet.v needs no bound; the permutation and no-witness-freedom statements are stated for every n. *)
From Coq Require Import Permutation Sorted.
From V.Base Require Import Common.
From V.Generated Require Import Constants.
From V.Circ Require Import Field Core Gadgets SortNet Sorting.

Lemma C31_pin_max : MAX_PROOF_COUNT = 64. Proof. reflexivity. Qed.
Lemma C31_pin_p : p = 2 ^ 64 - 2 ^ 32 + 1 /\ two32 = 2 ^ 32. Proof. split; reflexivity. Qed.

Lemma C31_spec_canon x : canon x <-> 0 <= x < p. Proof. reflexivity. Qed.
Lemma C31_spec_order a0 a1 a2 a3 b0 b1 b2 b3 :
  digest_ltb [a0; a1; a2; a3] [b0; b1; b2; b3] =
  (a0 <? b0) || ((a0 =? b0) && ((a1 <? b1) || ((a1 =? b1) && ((a2 <? b2) || ((a2 =? b2) && (a3 <? b3)))))).
Proof. unfold digest_ltb. cbn [lexlt]. rewrite andb_false_r, orb_false_r. reflexivity. Qed.
Lemma C31_spec_le a b : digest_le a b <-> digest_ltb b a = false. Proof. reflexivity. Qed.
(* the order is a strict total order: the ascending permutation is unique *)
Lemma C31_spec_total_order :
  (forall a, digest_ltb a a = false) /\
  (forall a b c, digest_ltb a b = true -> digest_ltb b c = true -> digest_ltb a c = true) /\
  (forall a b, digest_ltb a b = false -> digest_ltb b a = false -> a = b).
Proof. exact (conj lexlt_irrefl (conj lexlt_trans lexlt_antisym)). Qed.
Theorem C31_output_is_sorted_permutation values :
  Permutation (sort_spec values) values /\ StronglySorted digest_le (sort_spec values).
Proof. exact (conj (sort_spec_perm values) (sort_spec_sorted values)). Qed.
Theorem C31_spec_unique values out :
  Permutation out values -> StronglySorted digest_le out -> out = sort_spec values.
Proof. exact (sort_spec_unique values out). Qed.

(* whatever the witness, the only reachable output is the ascending permutation (and it is reachable) *)
Theorem C31_sort_sound : forall H values post, (length values <= 64)%nat ->
  Forall (fun d => length d = 4%nat /\ Forall canon d) values ->
  (rel H (sort_digests4 values) post <-> post (sort_spec values)).
Proof. intros H values post _ G. apply det_rel, (det_sort_digests4 H 4 values G). Qed.
Theorem C31_sort_sound_max : forall H values post, Z.of_nat (length values) <= MAX_PROOF_COUNT ->
  Forall (fun d => length d = 4%nat /\ Forall canon d) values ->
  (rel H (sort_digests4 values) post <-> post (sort_spec values)).
Proof. intros H values post L. apply C31_sort_sound. rewrite C31_pin_max in L. lia. Qed.
Theorem C31_honest_output : forall H values, (length values <= 64)%nat ->
  Forall (fun d => length d = 4%nat /\ Forall canon d) values ->
  hon H (sort_digests4 values) = Some (sort_spec values).
Proof. intros H values _ G. apply det_hon, (det_sort_digests4 H 4 values G). Qed.
Theorem C31_no_unsorted_witness : forall H values, (length values <= 64)%nat ->
  Forall (fun d => length d = 4%nat /\ Forall canon d) values ->
  ~ rel H (sort_digests4 values) (fun out => ~ (Permutation out values /\ StronglySorted digest_le out)).
Proof.
  intros H values L G R. apply (C31_sort_sound H values _ L G) in R.
  apply R, C31_output_is_sorted_permutation.
Qed.

(* any number of digests: every reachable output is a permutation of the input *)
Theorem C31_permutation_any_length : forall H values post,
  Forall (fun d => length d = 4%nat /\ Forall canon d) values ->
  rel H (sort_digests4 values) post -> exists out, Permutation out values /\ post out.
Proof.
  intros H values post G R. apply (det_rel H _ _ post (det_sort_digests4_oets H 4 values G)) in R.
  exists (oets digest_ltb values). split; [apply oets_perm|exact R].
Qed.
Theorem C31_no_non_permutation_witness : forall H values,
  Forall (fun d => length d = 4%nat /\ Forall canon d) values ->
  ~ rel H (sort_digests4 values) (fun out => ~ Permutation out values).
Proof.
  intros H values G R. destruct (C31_permutation_any_length H values _ G R) as (out & P & N). exact (N P).
Qed.
(* any number of digests: no witness freedom - the reachable outputs are exactly the honest one *)
Theorem C31_refines : forall H values,
  Forall (fun d => length d = 4%nat /\ Forall canon d) values -> refines H (sort_digests4 values).
Proof. exact refines_sort_digests4. Qed.

Definition C31_H0 : list Z -> list Z := fun _ => [0; 0; 0; 0].
Definition C31_ex : list (list Z) :=
  [ [p - 1; 0; 4294967295; 7];
    [5; 4294967296; p - 1; 4294967295];
    [p - 1; 0; 4294967295; 7];
    [5; 4294967295; p - 1; p - 1] ].
Example C31_ex_hyps : (length C31_ex <= 64)%nat /\ Forall (fun d => length d = 4%nat /\ Forall canon d) C31_ex.
Proof.
  split; [cbn; lia|]. unfold C31_ex.
  repeat (constructor; [split; [reflexivity|repeat (constructor; [apply is_canon_spec; reflexivity|]); constructor]|]).
  constructor.
Qed.
Example C31_ex_spec :
  sort_spec C31_ex =
  [ [5; 4294967295; p - 1; p - 1];
    [5; 4294967296; p - 1; 4294967295];
    [p - 1; 0; 4294967295; 7];
    [p - 1; 0; 4294967295; 7] ].
Proof. vm_compute. reflexivity. Qed.
(* the transcribed circuit, run with the honest generators, gives exactly that *)
Example C31_ex_hon : hon C31_H0 (sort_digests4 C31_ex) = Some (sort_spec C31_ex).
Proof. rewrite C31_ex_spec. vm_compute. reflexivity. Qed.
Example C31_ex_sound post : rel C31_H0 (sort_digests4 C31_ex) post <-> post (sort_spec C31_ex).
Proof. exact (C31_sort_sound C31_H0 C31_ex post (proj1 C31_ex_hyps) (proj2 C31_ex_hyps)). Qed.
