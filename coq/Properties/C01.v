(* C01 - Every statement the leaf circuit can be satisfied for has asset id, input amount, both output
   amounts, block number and both transfer-count limbs below 2^32 and a fee of at most 10000 bps.
   Its outputs obey (out1 + out2) * 10000 <= in * (10000 - fee) over the integers, with no field
   wrap-around.  No witness, honest or adversarial, can satisfy the circuit otherwise.

   Model: V.Circ.Leaf (transcription of WormholeCircuit::new_internal and its fragments, in the order
   of the builder calls) over the circuit semantics of V.Circ.Core:
     [rel H c post] - some assignment of ALL hint wires (arbitrary field elements) satisfies every
                      constraint of [c] and its output satisfies [post]     (adversarial prover);
     [hon H c]      - what the honest witness generators produce ([None] = a constraint is violated).
   [i : LeafIn] assigns a value to every virtual target of CircuitTargets; [wf_in i] only says that
   these values are field elements and the vectors have their fixed lengths; [hash_wf H] only says that
   the hash returns 4 field elements.  No hypothesis distinguishes dummy statements: the ranges and
   the fee rule hold for them too.  Proofs: V.Circ.LeafProofs. *)
From V.Base Require Import Common.
From V.Generated Require Import Constants.
From V.Circ Require Import Field Core Prims Gadgets Leaf LeafProofs.

Lemma C01_pin_p : p = FIELD_ORDER. Proof. reflexivity. Qed.

Theorem C01_leaf_ranges_and_fee :
  forall (H : list Z -> list Z) (i : LeafIn) (post : list Z -> Prop),
    hash_wf H -> wf_in i -> rel H (leaf_circuit i) post ->
    li_asset i < 2 ^ 32 /\ li_input_amount i < 2 ^ 32 /\ li_out1 i < 2 ^ 32 /\ li_out2 i < 2 ^ 32 /\
    li_block_number i < 2 ^ 32 /\ Forall (fun v => v < 2 ^ 32) (li_leaf_tc i) /\
    li_fee i <= 10000 /\
    (li_out1 i + li_out2 i) * 10000 <= li_input_amount i * (10000 - li_fee i).
Proof.
  intros H i post Hwf W R. apply (leaf_ok_of_rel H Hwf i W) in R.
  destruct R as ((Tc & A & I & O1 & O2 & B) & (F & Rule) & _). tauto.
Qed.

(* the 21 public inputs are the statement: asset, out1, out2, fee, nullifier, exit1, exit2, block hash,
   block number, in this order - for every hash function and every assignment *)
Theorem C01_public_inputs_are_the_statement :
  forall (H : list Z -> list Z) (i : LeafIn) (post : list Z -> Prop),
    rel H (leaf_circuit i) post -> post (leaf_public_inputs i).
Proof. exact leaf_public_inputs_post. Qed.

Theorem C01_public_inputs_layout :
  forall i : LeafIn,
    leaf_public_inputs i = [li_asset i; li_out1 i; li_out2 i; li_fee i] ++ li_nullifier i ++ li_exit1 i
                           ++ li_exit2 i ++ li_block_hash i ++ [li_block_number i].
Proof. reflexivity. Qed.

Theorem C01_public_inputs_length : forall i : LeafIn, wf_in i -> length (leaf_public_inputs i) = 21%nat.
Proof. exact public_inputs_length. Qed.

(* the exact set of satisfiable assignments: [leaf_ok] (of which the conjuncts above are a part) *)
Theorem C01_leaf_rel_iff :
  forall (H : list Z -> list Z) (i : LeafIn) (post : list Z -> Prop),
    hash_wf H -> wf_in i ->
    (rel H (leaf_circuit i) post <-> leaf_ok H i /\ post (leaf_public_inputs i)).
Proof. intros H i post Hwf W. exact (leaf_rel_iff H Hwf i W post). Qed.

(* the field-arithmetic core: the two range checks of the fee rule are the integer inequalities *)
Theorem C01_fee_rule_no_wraparound :
  forall fee inp o1 o2 : Z,
    0 <= fee < 4294967296 -> 0 <= inp < 4294967296 -> 0 <= o1 < 4294967296 -> 0 <= o2 < 4294967296 ->
    (fsub 10000 fee < 16384 /\
     fsub (fmul inp (fsub 10000 fee)) (fmul (fadd o1 o2) 10000) < 281474976710656)
    <-> (fee <= 10000 /\ (o1 + o2) * 10000 <= inp * (10000 - fee)).
Proof. exact fee_rule_arith. Qed.

Example C01_nv_H0 : hash_wf H0. Proof. exact H0_wf. Qed.
Example C01_nv_wf : wf_in ex_real. Proof. exact ex_real_wf. Qed.
(* (out1, out2, fee, in) = (40, 9, 10 bps, 50): 490000 <= 499500, accepted *)
Example C01_nv_accepted : hon H0 (leaf_circuit ex_real) = Some (leaf_public_inputs ex_real).
Proof. exact ex_real_accepted. Qed.
Example C01_nv_rel : rel H0 (leaf_circuit ex_real) (fun o => o = leaf_public_inputs ex_real).
Proof. exact (leaf_sat H0 ex_real C01_nv_wf C01_nv_accepted). Qed.
(* fee 10001 bps, (45 + 9) * 10000 > 50 * 9990, out1 = 2^32: no witness at all *)
Example C01_nv_fee_over : forall post, ~ rel H0 (leaf_circuit ex_bad_fee) post.
Proof. apply leaf_unsat_b; vm_compute; reflexivity. Qed.
Example C01_nv_rule_violated : forall post, ~ rel H0 (leaf_circuit ex_bad_rule) post.
Proof. apply leaf_unsat_b; vm_compute; reflexivity. Qed.
Example C01_nv_out_of_range : forall post, ~ rel H0 (leaf_circuit ex_bad_range) post.
Proof. apply leaf_unsat_b; vm_compute; reflexivity. Qed.
