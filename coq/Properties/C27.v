(* C27 - Native Merkle proofs verify exactly the valid 4-ary paths, like the circuit.

   Model: Sys/Merkle.v (hand-written after common/src/zk_merkle.rs and the path part of
   wormhole/circuit/src/zk_merkle_proof.rs; tied to the implementation by the differential run of
   harness/src/bin/merkle.rs, Poseidon2 answered natively).  Proofs: Sys/MerkleProofs.v.
   A 32-byte hash is the list of its four little-endian u64 limbs.  H is the Poseidon2 sponge as an arbitrary
   function; the only premise about it is [hash_wf H]: it returns four canonical field elements.

   Vocabulary (defined in MerkleProofs.v, independent of the functions under proof; C27_spec_* restate it):
     typed_digest d / typed_level l / typed_proof pr   the Rust types ([u8; 32] as 4 limbs < 2^64, [Hash256; 3], Vec<u8>)
     canonical d        4 limbs, each 0 <= v < p           canonical_level l   3 canonical hashes
     fold_insert H cur levels   fold over (siblings, position): cur := H (concat (siblings with cur inserted at position))
     hash_le / hash_lt  byte-lexicographic order of the 32-byte strings (C27_order_is_bytewise)
     rank cur sibs      number of siblings strictly below cur in that order
     normalised H leaf unsorted stored positions   what from_unsorted stores for a path (C27_spec_normalised)
     root_of H leaf unsorted   the root of the path when every child set is hashed in sorted order *)
From Coq Require Import Permutation Sorted.
From V.Base Require Import Common.
From V.Generated Require Import Constants.
From V.Circ Require Import Field Core Prims Gadgets Leaf.
From V.Sys Require Import Merkle MerkleProofs.
Import ListNotations.

Lemma C27_pin_max_depth : MERKLE_MAX_DEPTH = 16. Proof. reflexivity. Qed.
Lemma C27_pin_arity : MERKLE_ARITY = 4 /\ MERKLE_SIBLINGS_PER_LEVEL = 3. Proof. split; reflexivity. Qed.
Lemma C27_pin_modulus : MERKLE_GOLDILOCKS_MODULUS = p /\ p = 2 ^ 64 - 2 ^ 32 + 1. Proof. split; reflexivity. Qed.
Lemma C27_pin_children : MERKLE_CHILDREN_BYTES = 128 /\ POSEIDON2_OUTPUT = 4. Proof. split; reflexivity. Qed.
(* the comparison width of the circuit's depth gadgets: bit length of MAX_DEPTH *)
Lemma C27_pin_n_log : Z.of_nat n_log_depth = Z.log2 MERKLE_MAX_DEPTH + 1. Proof. reflexivity. Qed.

Lemma C27_spec_types d l :
  (typed_digest d <-> length d = 4%nat /\ Forall (fun v => 0 <= v < two64) d) /\
  (typed_level l <-> length l = 3%nat /\ Forall typed_digest l) /\
  (canonical d <-> length d = 4%nat /\ Forall (fun v => 0 <= v < p) d) /\
  (canonical_level l <-> length l = 3%nat /\ Forall canonical l).
Proof. split; [reflexivity|split; [reflexivity|split; reflexivity]]. Qed.
Lemma C27_spec_typed_proof pr :
  typed_proof pr <->
  Forall typed_level (pf_siblings pr) /\ Forall (fun q => 0 <= q < 256) (pf_positions pr) /\
  typed_digest (pf_leaf pr) /\ typed_digest (pf_root pr).
Proof. split; [intros [A B C D]; tauto|intros (A & B & C & D); constructor; assumption]. Qed.
Lemma C27_spec_hash_wf H : hash_wf H <-> forall l, length (H l) = 4%nat /\ Forall (fun v => 0 <= v < p) (H l).
Proof. reflexivity. Qed.
Lemma C27_spec_fold H cur sibs pos rest :
  fold_insert H cur [] = cur /\
  fold_insert H cur ((sibs, pos) :: rest) =
  fold_insert H (H (concat (firstn (Z.to_nat pos) sibs ++ cur :: skipn (Z.to_nat pos) sibs))) rest.
Proof. split; reflexivity. Qed.
Lemma C27_spec_rank cur sibs :
  rank cur sibs = Z.of_nat (length (filter (fun s => hash_ltb s cur) sibs)) /\
  (forall a b, hash_lt a b <-> hash_ltb a b = true) /\ (forall a b, hash_le a b <-> hash_leb a b = true) /\
  (forall a b, hash_ltb a b = negb (hash_leb b a)).
Proof. split; [reflexivity|split; [intros; reflexivity|split; [intros; reflexivity|intros; reflexivity]]]. Qed.
Lemma C27_spec_normalised H cur lv ur s sr q qr :
  (normalised H cur [] [] [] <-> True) /\
  (normalised H cur (lv :: ur) (s :: sr) (q :: qr) <->
   q = rank cur lv /\ Permutation s lv /\ StronglySorted hash_le s /\
   firstn (Z.to_nat q) s ++ cur :: skipn (Z.to_nat q) s = sort_hashes (cur :: lv) /\
   normalised H (H (concat (sort_hashes (cur :: lv)))) ur sr qr) /\
  root_of H cur [] = cur /\
  root_of H cur (lv :: ur) = root_of H (H (concat (sort_hashes (cur :: lv)))) ur.
Proof. split; [reflexivity|split; [reflexivity|split; reflexivity]]. Qed.
(* [sort_hashes] is the sorted arrangement, the unique one ([T]::sort of the code, whatever its algorithm) *)
Theorem C27_spec_sort : forall l,
  Permutation (sort_hashes l) l /\ StronglySorted hash_le (sort_hashes l) /\
  (forall s, Forall typed_digest l -> Permutation s l -> StronglySorted hash_le s -> sort_hashes l = s).
Proof. intros l. split; [apply sort_perm|]. split; [apply sort_sorted|]. intros s. apply sort_unique. Qed.

(* the order is the byte-lexicographic one of the 32-byte strings: total, antisymmetric on hashes, and
   "strictly below" means that the first differing byte (byte 0 = least significant byte of limb 0) is smaller *)
Theorem C27_order_is_bytewise :
  (forall a b, length a = length b ->
     (hash_lt a b <-> lex_lt (flat_map (to_le 8) a) (flat_map (to_le 8) b))) /\
  (forall x y a b, lex_lt (x :: a) (y :: b) <-> x < y \/ (x = y /\ lex_lt a b)) /\
  (forall a, hash_le a a) /\
  (forall a b, hash_le a b \/ hash_le b a) /\
  (forall a b c, hash_le a b -> hash_le b c -> hash_le a c) /\
  (forall a b, typed_digest a -> typed_digest b -> hash_le a b -> hash_le b a -> a = b).
Proof.
  split; [exact hash_lt_spec|]. split.
  { intros x y a b. split.
    - intros I. inversion I; subst; [left; assumption|right; split; [reflexivity|assumption]].
    - intros [L|[-> L]]; [apply lex_lt_here; exact L|apply lex_lt_next; exact L]. }
  split; [exact hash_le_refl|]. split; [exact hash_le_total|]. split; [exact hash_le_trans|exact hash_le_antisym].
Qed.
(* it is NOT the numeric order of the limbs: limb 0x0100 has bytes 00 01 .., limb 0x0001 has bytes 01 00 .. *)
Example C27_byte_order_not_numeric : hash_lt [256; 0; 0; 0] [1; 0; 0; 0] /\ 1 < 256.
Proof. split; reflexivity. Qed.

(* verify and verify_with_positions accept exactly: depth <= 16, one position per level, leaf and every sibling
   canonical, every position in 0..3, and the fold of the position-inserted node hash reaches the root.
   The code does not test the root for canonicity; it follows (C27_verify_root_canonical). *)
Theorem C27_verify_iff : forall H pr, hash_wf H -> typed_proof pr ->
  (verify H pr = true <->
   zlen (pf_siblings pr) <= 16 /\
   length (pf_positions pr) = length (pf_siblings pr) /\
   canonical (pf_leaf pr) /\
   Forall canonical_level (pf_siblings pr) /\
   Forall (fun q => 0 <= q < 4) (pf_positions pr) /\
   fold_insert H (pf_leaf pr) (combine (pf_siblings pr) (pf_positions pr)) = pf_root pr).
Proof. exact verify_iff. Qed.

Theorem C27_verify_root_canonical : forall H pr, hash_wf H -> typed_proof pr ->
  verify H pr = true -> canonical (pf_root pr).
Proof.
  intros H pr Hwf T V. apply (verify_iff H pr Hwf T) in V. destruct V as (_ & _ & C & _ & _ & E).
  rewrite <- E. apply LeafProofs.fold_insert_wf; assumption.
Qed.

(* the API returns a plain bool (no Result): the model does too, so "never panics, never errors" is its type;
   the two entry points are the same function *)
Theorem C27_verify_total : forall H pr,
  (verify H pr = true \/ verify H pr = false) /\ verify H pr = verify_with_positions H pr.
Proof. intros H pr. split; [destruct (verify H pr); [left|right]; reflexivity|reflexivity]. Qed.

Theorem C27_insert_at_position : forall cur sibs pos, length sibs = 3%nat ->
  (0 <= pos < 4 ->
   insert_at_position cur sibs pos = Ok (firstn (Z.to_nat pos) sibs ++ cur :: skipn (Z.to_nat pos) sibs)) /\
  (~ 0 <= pos < 4 -> insert_at_position cur sibs pos = Err 1) /\
  insert_at_position cur sibs pos <> Err PANIC.
Proof.
  intros cur sibs pos L. rewrite (insert_at_position_len3 cur sibs pos L). destruct (pos_ok pos) eqn:E.
  - apply pos_ok_spec in E. split; [intros _; reflexivity|]. split; [intros N; contradiction|discriminate].
  - split; [intros R; apply pos_ok_spec in R; congruence|]. split; [reflexivity|discriminate].
Qed.
Theorem C27_insert_at_position_shapes : forall cur s0 s1 s2,
  insert_at_position cur [s0; s1; s2] 0 = Ok [cur; s0; s1; s2] /\
  insert_at_position cur [s0; s1; s2] 1 = Ok [s0; cur; s1; s2] /\
  insert_at_position cur [s0; s1; s2] 2 = Ok [s0; s1; cur; s2] /\
  insert_at_position cur [s0; s1; s2] 3 = Ok [s0; s1; s2; cur].
Proof. repeat split. Qed.

(* For every canonical path of depth <= 16 (and any root bytes): success; leaf and root are stored as given; per
   level the position is the rank of the running hash among the four children in byte-lexicographic order - when
   the running hash equals a sibling it takes the FIRST of the equal slots (rank counts strictly smaller
   siblings only) -, the stored siblings are the given ones in sorted order, and inserting the running hash
   at the position gives the sorted child set; the result verifies iff the given root is the path's root, and it
   always verifies against that computed root. *)
Theorem C27_from_unsorted_ok : forall H leaf root sibs, hash_wf H ->
  zlen sibs <= 16 -> canonical leaf -> Forall canonical_level sibs -> typed_digest root ->
  exists pr, from_unsorted H sibs leaf root = Ok pr /\
    pf_leaf pr = leaf /\ pf_root pr = root /\
    normalised H leaf sibs (pf_siblings pr) (pf_positions pr) /\
    typed_proof pr /\
    (verify H pr = true <-> root = root_of H leaf sibs) /\
    verify H (mkProof (pf_siblings pr) (pf_positions pr) leaf (root_of H leaf sibs)) = true.
Proof.
  intros H leaf root sibs Hwf D Cl Cs Tr.
  destruct (from_unsorted_normalises H sibs leaf root Hwf D Cl Cs) as (ss & ps & E & N).
  destruct (normalised_verify H leaf sibs ss ps Hwf D Cl Cs N) as [Cr V].
  exists (mkProof ss ps leaf root). cbn [pf_siblings pf_positions pf_leaf pf_root].
  split; [exact E|]. split; [reflexivity|]. split; [reflexivity|]. split; [exact N|].
  split; [apply (V root Tr)|]. split; [apply (V root Tr)|]. apply (V _ (canonical_typed _ Cr)). reflexivity.
Qed.

(* the computed root is the fold of the order-independent hash_node over the raw child sets *)
Theorem C27_root_of_is_hash_node_fold : forall H levels cur, hash_wf H -> canonical cur -> Forall (Forall canonical) levels ->
  compute_root H cur levels = Ok (root_of H cur levels).
Proof. intros H levels cur Hwf. apply compute_root_spec. exact Hwf. Qed.

(* depth > 16 or a non-canonical leaf / sibling: an error, never a value, never a panic *)
Theorem C27_from_unsorted_rejects : forall H leaf root sibs, hash_wf H -> typed_digest leaf -> Forall typed_level sibs ->
  (is_ok (from_unsorted H sibs leaf root) = true <->
   zlen sibs <= 16 /\ canonical leaf /\ Forall canonical_level sibs) /\
  from_unsorted H sibs leaf root <> Err PANIC.
Proof.
  intros H leaf root sibs Hwf Tl Ts. rewrite <- (path_guards_spec sibs leaf Tl Ts).
  destruct (_ && _ && _) eqn:G.
  - apply (path_guards_spec sibs leaf Tl Ts) in G. destruct G as (D & Cl & Cs).
    destruct (from_unsorted_normalises H sibs leaf root Hwf D Cl Cs) as (ss & ps & -> & _).
    split; [split; reflexivity|discriminate].
  - rewrite from_unsorted_unfold, G. split; [split; discriminate|].
    destruct (_ <=? _), (is_canonical_hash leaf); discriminate.
Qed.

(* the leaf circuit (Leaf.v, the object of C01-C04) consumes the tree path only through [path_circuit] *)
Theorem C27_leaf_circuit_contains_path : forall i,
  zk_merkle_circuit i =
  (_ <- range_check_all (li_leaf_tc i ++ [li_asset i; li_input_amount i; li_out1 i; li_out2 i; li_fee i]) 32 ;;
   _ <- range_check (fsub 10000 (li_fee i)) 14 ;;
   _ <- range_check (fsub (fmul (li_input_amount i) (fsub 10000 (li_fee i))) (fmul (fadd (li_out1 i) (li_out2 i)) 10000)) 48 ;;
   Hash (li_to_account i ++ li_leaf_tc i ++ [li_asset i; li_input_amount i]) (fun leaf_hash =>
   path_circuit (li_depth i) leaf_hash (li_siblings i) (li_positions i) (li_root_hash i) (li_is_not_dummy i))).
Proof. reflexivity. Qed.
Lemma C27_spec_path_circuit depth leaf_hash sibs positions root flag :
  path_circuit depth leaf_hash sibs positions root flag =
  (_ <- enforce_target_less_than_const depth (MERKLE_MAX_DEPTH + 1) n_log_depth ;;
   root' <- merkle_walk 0 depth leaf_hash (combine sibs positions) ;;
   assert_gated root' root flag (Ret tt)).
Proof. reflexivity. Qed.

(* A real (is_not_dummy = 1) statement whose path data is canonical: the depth target holds the number of
   levels, the 16 level targets hold the path followed by ANY padding of the unused levels (canonical hashes,
   positions below 4; fill_targets uses zeros).  Then the walk computes the native fold (the activity flags
   level < depth select exactly the first depth levels), and the path constraints are satisfiable - by the
   honest witness generators (hon) and by any adversarial prover (rel) alike - iff the native verifier accepts
   the same path.  Positions of the USED levels are arbitrary bytes here: 4.. is rejected by both sides. *)
Theorem C27_circuit_iff_native : forall H, hash_wf H -> forall pr pad_s pad_q,
  typed_proof pr ->
  canonical (pf_leaf pr) -> Forall canonical_level (pf_siblings pr) -> canonical (pf_root pr) ->
  length (pf_positions pr) = length (pf_siblings pr) ->
  (length (pf_siblings pr) + length pad_s = 16)%nat -> length pad_q = length pad_s ->
  Forall canonical_level pad_s -> Forall (fun q => 0 <= q < 4) pad_q ->
  let c := path_circuit (zlen (pf_siblings pr)) (pf_leaf pr) (pf_siblings pr ++ pad_s) (pf_positions pr ++ pad_q)
                        (pf_root pr) 1 in
  (hon H c = Some tt <-> verify H pr = true) /\
  (rel H c (fun _ => True) <-> verify H pr = true) /\
  hon H (merkle_walk 0 (zlen (pf_siblings pr)) (pf_leaf pr) (combine (pf_siblings pr ++ pad_s) (pf_positions pr ++ pad_q)))
  = if forallb (fun q => q <? 4) (pf_positions pr)
    then Some (fold_insert H (pf_leaf pr) (combine (pf_siblings pr) (pf_positions pr))) else None.
Proof.
  intros H Hwf [s ps leaf root] pad_s pad_q T Cl Cs Cr Lq L16 Lpad Cpad Qpad c.
  destruct (path_circuit_native H Hwf s ps leaf root pad_s pad_q Cl Cs (tp_positions _ T) Cr Lq L16 Lpad Cpad Qpad)
    as [G Hw].
  split; [|split; [|exact Hw]]; unfold c; cbn [pf_siblings pf_positions pf_leaf pf_root].
  - rewrite (gdet_hon H _ _ _ G). destruct (verify H _); split; congruence.
  - rewrite (gdet_rel H _ _ _ _ G). tauto.
Qed.

(* the same through the prover's own data path (ZkMerkleProofData::new; fill_targets with its depth / length /
   position checks and zero padding), for proofs of ANY depth and ANY position / length vectors *)
Theorem C27_prover_data_iff_native : forall H, hash_wf H -> forall pr,
  typed_proof pr ->
  canonical (pf_leaf pr) -> Forall canonical_level (pf_siblings pr) -> canonical (pf_root pr) ->
  circuit_accepts_path H (pf_leaf pr) (pf_siblings pr) (pf_positions pr) (pf_root pr) = verify H pr.
Proof.
  intros H Hwf [s ps leaf root] T Cl Cs. exact (prover_data_iff_native H Hwf s ps leaf root Cl Cs (tp_positions _ T)).
Qed.

(* The canonicity premise cannot be dropped: the prover's conversion reduces limbs mod p, so for a byte path
   containing a non-canonical alias (limb v + p) the circuit sees the canonical path and accepts, while the
   native verifier rejects the byte string.  (Hashes of a real tree are sponge outputs, hence canonical.) *)
Theorem C27_circuit_iff_native_noncanonical_refuted : forall H, hash_wf H ->
  exists pr, typed_proof pr /\ verify H pr = false /\
    circuit_accepts_path H (map felt_of_limb (pf_leaf pr)) (map (map (map felt_of_limb)) (pf_siblings pr))
                         (pf_positions pr) (map felt_of_limb (pf_root pr)) = true.
Proof. exact noncanonical_gap. Qed.

Example C27_ex_hash_wf : hash_wf toyH.
Proof. exact toyH_wf. Qed.

(* depth 0: the leaf is the root *)
Example C27_ex_depth0 :
  verify toyH (mkProof [] [] [1; 2; 3; 4] [1; 2; 3; 4]) = true /\
  verify toyH (mkProof [] [] [1; 2; 3; 4] [1; 2; 3; 5]) = false /\
  verify toyH (mkProof [] [] [p; 2; 3; 4] [p; 2; 3; 4]) = false.
Proof. repeat (split; [vm_compute; reflexivity|]). vm_compute. reflexivity. Qed.

(* depth 2, with a tie (the leaf equals a sibling: it takes the first of the two equal slots, position 2), a
   byte-order / numeric-order disagreement (256 sorts before 1) and the limb p - 1 *)
Definition C27_ex_leaf : list Z := [5; 0; 0; 0].
Definition C27_ex_sibs : list (list (list Z)) :=
  [[[256; 0; 0; 0]; [1; 0; 0; 0]; [5; 0; 0; 0]]; [[0; 0; 0; 9]; [p - 1; 1; 2; 3]; [0; 0; 0; 0]]].
Definition C27_ex_root : list Z := [490471694581219623; 13180635784788345910; 5; 7].
Example C27_ex_depth2 :
  from_unsorted toyH C27_ex_sibs C27_ex_leaf C27_ex_root =
    Ok (mkProof [[[256; 0; 0; 0]; [1; 0; 0; 0]; [5; 0; 0; 0]]; [[0; 0; 0; 0]; [0; 0; 0; 9]; [p - 1; 1; 2; 3]]]
                [2; 3] C27_ex_leaf C27_ex_root) /\
  root_of toyH C27_ex_leaf C27_ex_sibs = C27_ex_root /\
  verify toyH (mkProof [[[256; 0; 0; 0]; [1; 0; 0; 0]; [5; 0; 0; 0]]; [[0; 0; 0; 0]; [0; 0; 0; 9]; [p - 1; 1; 2; 3]]]
                       [2; 3] C27_ex_leaf C27_ex_root) = true /\
  (* a wrong position hint; the other slot of the tie (same children, so it verifies too); a 17-level path *)
  verify toyH (mkProof [[[256; 0; 0; 0]; [1; 0; 0; 0]; [5; 0; 0; 0]]; [[0; 0; 0; 0]; [0; 0; 0; 9]; [p - 1; 1; 2; 3]]]
                       [1; 3] C27_ex_leaf C27_ex_root) = false /\
  verify toyH (mkProof [[[256; 0; 0; 0]; [1; 0; 0; 0]; [5; 0; 0; 0]]; [[0; 0; 0; 0]; [0; 0; 0; 9]; [p - 1; 1; 2; 3]]]
                       [3; 3] C27_ex_leaf C27_ex_root) = true /\
  is_ok (from_unsorted toyH (repeat [[0; 0; 0; 0]; [0; 0; 0; 0]; [0; 0; 0; 0]] 17) C27_ex_leaf [0; 0; 0; 0]) = false /\
  (* the circuit side on the same path *)
  circuit_accepts_path toyH C27_ex_leaf
    [[[256; 0; 0; 0]; [1; 0; 0; 0]; [5; 0; 0; 0]]; [[0; 0; 0; 0]; [0; 0; 0; 9]; [p - 1; 1; 2; 3]]] [2; 3] C27_ex_root = true.
Proof.
  match goal with |- _ /\ _ /\ ?V /\ _ => assert (Hv : V) by (vm_compute; reflexivity) end.
  do 2 (split; [vm_compute; reflexivity|]). split; [exact Hv|]. do 3 (split; [vm_compute; reflexivity|]).
  (* the circuit side from the verifier's verdict: evaluating its 16 levels is slow to check *)
  rewrite (prover_data_iff_native toyH toyH_wf); [exact Hv|apply (LeafProofs.wf_listb_spec 4); reflexivity| |
    repeat constructor; lia|apply (LeafProofs.wf_listb_spec 4); reflexivity].
  apply (forallb_Forall_iff LeafProofs.wf_levelb); [intros; apply LeafProofs.wf_levelb_spec|reflexivity].
Qed.
Example C27_ex_rank_tie : rank [1; 0; 0; 0] [[1; 0; 0; 0]; [0; 0; 0; 0]; [2; 0; 0; 0]] = 1.
Proof. reflexivity. Qed.
(* the hypotheses of C27_from_unsorted_ok / C27_circuit_iff_native are met by that path *)
Example C27_ex_hyps :
  canonical C27_ex_leaf /\ Forall canonical_level C27_ex_sibs /\ zlen C27_ex_sibs <= 16.
Proof.
  split; [apply (LeafProofs.wf_listb_spec 4); reflexivity|]. split; [|vm_compute; discriminate].
  apply (forallb_Forall_iff LeafProofs.wf_levelb); [intros; apply LeafProofs.wf_levelb_spec|reflexivity].
Qed.
