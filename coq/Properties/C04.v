(* C04 - A leaf statement escapes the nullifier, header and tree-root bindings only when its block hash
   is all-zero and both output amounts are zero.  With a non-zero block hash, or any non-zero output
   amount, every binding is enforced, and the prover has no witness freedom over the dummy decision.
   Range and fee constraints hold for dummies too.

   [is_dummy_stmt i] = all four block-hash limbs are zero and both output amounts are zero.
   [li_is_not_dummy i] is the virtual bool target ZkMerkleProofTargets.is_not_dummy (a free witness
   wire of the circuit).  [refines H c] = "no witness freedom": whatever an adversarial prover can
   satisfy is exactly what the honest witness generators produce.
   Model, semantics and hypotheses: see C01.v.  Proofs: V.Circ.LeafProofs. *)
From V.Base Require Import Common.
From V.Generated Require Import Constants.
From V.Circ Require Import Field Core Prims Gadgets Leaf LeafProofs.

Lemma C04_pin_max_depth : MERKLE_MAX_DEPTH = 16. Proof. reflexivity. Qed.

Theorem C04_dummy_means :
  forall i : LeafIn, length (li_block_hash i) = 4%nat ->
    (is_dummy_stmt i = true <-> li_block_hash i = [0; 0; 0; 0] /\ li_out1 i = 0 /\ li_out2 i = 0).
Proof. exact is_dummy_stmt_spec. Qed.

(* the flag wire is a function of the public statement *)
Theorem C04_dummy_flag_determined :
  forall (H : list Z -> list Z) (i : LeafIn) (post : list Z -> Prop),
    hash_wf H -> wf_in i -> rel H (leaf_circuit i) post ->
    li_is_not_dummy i = (if is_dummy_stmt i then 0 else 1).
Proof. intros H i post Hwf W R. apply (leaf_ok_of_rel H Hwf i W) in R. apply R. Qed.

(* non-zero block hash or non-zero output: nullifier, header and tree-root bindings all hold *)
Theorem C04_bindings_enforced :
  forall (H : list Z -> list Z) (i : LeafIn) (post : list Z -> Prop),
    hash_wf H -> wf_in i -> rel H (leaf_circuit i) post -> is_dummy_stmt i = false ->
    (li_nullifier i = H (H (NULLIFIER_SALT_FELTS ++ li_null_secret i ++ li_null_tc i)) /\
     li_to_account i = H (H (UNSPENDABLE_SALT_FELTS ++ li_null_secret i)) /\
     li_leaf_tc i = li_null_tc i) /\
    li_block_hash i = H (header_preimage i) /\
    li_tree_root i =
      fold_insert H (H (li_to_account i ++ li_leaf_tc i ++ [li_asset i; li_input_amount i]))
                  (firstn (Z.to_nat (li_depth i)) (combine (li_siblings i) (li_positions i))).
Proof. intros H i post Hwf W. exact (bindings_enforced H Hwf i W post). Qed.

(* no witness freedom anywhere in the leaf circuit, for every hash function *)
Theorem C04_no_witness_freedom :
  forall (H : list Z -> list Z) (i : LeafIn), wf_in i -> refines H (leaf_circuit i).
Proof. exact leaf_refines. Qed.

Theorem C04_ranges_hold_for_dummies :
  forall (H : list Z -> list Z) (i : LeafIn) (post : list Z -> Prop),
    hash_wf H -> wf_in i -> is_dummy_stmt i = true -> rel H (leaf_circuit i) post ->
    li_asset i < 2 ^ 32 /\ li_input_amount i < 2 ^ 32 /\ li_out1 i < 2 ^ 32 /\ li_out2 i < 2 ^ 32 /\
    li_block_number i < 2 ^ 32 /\ Forall (fun v => v < 2 ^ 32) (li_leaf_tc i) /\
    li_fee i <= 10000 /\
    (li_out1 i + li_out2 i) * 10000 <= li_input_amount i * (10000 - li_fee i).
Proof.
  intros H i post Hwf W _ R. apply (leaf_ok_of_rel H Hwf i W) in R.
  destruct R as ((Tc & A & I & O1 & O2 & B) & (F & Rule) & _). tauto.
Qed.

(* "escapes": a dummy statement is satisfiable exactly under conditions that mention neither the
   nullifier, nor any header field, nor the two roots, nor the siblings *)
Theorem C04_dummy_rel_iff :
  forall (H : list Z -> list Z) (i : LeafIn) (post : list Z -> Prop),
    hash_wf H -> wf_in i -> is_dummy_stmt i = true ->
    (rel H (leaf_circuit i) post <->
     (li_is_not_dummy i = 0 /\
      (li_asset i < 2 ^ 32 /\ li_input_amount i < 2 ^ 32 /\ li_block_number i < 2 ^ 32 /\
       Forall (fun v => v < 2 ^ 32) (li_leaf_tc i)) /\
      li_fee i <= 10000 /\
      (li_depth i <= 16 /\ Forall (fun q => 0 <= q < 4) (li_positions i)) /\
      (li_unsp_account i = H (H (UNSPENDABLE_SALT_FELTS ++ li_unsp_secret i)) /\
       li_to_account i = li_unsp_account i /\ li_null_secret i = li_unsp_secret i /\
       li_null_tc i = li_leaf_tc i)) /\
     post (leaf_public_inputs i)).
Proof. intros H i post Hwf W D. rewrite (leaf_rel_iff H Hwf i W post), (dummy_ok_iff H i W D). reflexivity. Qed.

Theorem C04_dummy_satisfiable :
  forall (H : list Z -> list Z) (i : LeafIn),
    hash_wf H -> wf_in i -> is_dummy_stmt i = true ->
    li_is_not_dummy i = 0 /\
    (li_asset i < 2 ^ 32 /\ li_input_amount i < 2 ^ 32 /\ li_block_number i < 2 ^ 32 /\
     Forall (fun v => v < 2 ^ 32) (li_leaf_tc i)) /\
    li_fee i <= 10000 /\
    (li_depth i <= 16 /\ Forall (fun q => 0 <= q < 4) (li_positions i)) /\
    (li_unsp_account i = H (H (UNSPENDABLE_SALT_FELTS ++ li_unsp_secret i)) /\
     li_to_account i = li_unsp_account i /\ li_null_secret i = li_unsp_secret i /\
     li_null_tc i = li_leaf_tc i) ->
    hon H (leaf_circuit i) = Some (leaf_public_inputs i).
Proof. intros H i Hwf W D C. apply (hon_leaf_iff H Hwf i W), (dummy_ok_iff H i W D), C. Qed.

(* honest witness generation = the executable acceptance condition *)
Theorem C04_hon_leaf_spec :
  forall (H : list Z -> list Z) (i : LeafIn), hash_wf H -> wf_in i ->
    hon H (leaf_circuit i) = if leaf_accepts H i then Some (leaf_public_inputs i) else None.
Proof. exact hon_leaf_spec. Qed.

Example C04_nv_wf_dummy : wf_in ex_dummy. Proof. exact ex_dummy_wf. Qed.
(* zero block hash, zero outputs, nullifier [9;9;9;9], header tree root [6;6;6;6] <> proof root: accepted *)
Example C04_nv_dummy_escapes :
  is_dummy_stmt ex_dummy = true /\ li_tree_root ex_dummy <> li_root_hash ex_dummy /\
  hon H0 (leaf_circuit ex_dummy) = Some (leaf_public_inputs ex_dummy).
Proof.
  split; [exact ex_dummy_is_dummy|]. split; [|exact ex_dummy_accepted].
  intros E. vm_compute in E. discriminate E.
Qed.
Example C04_nv_dummy_rel : rel H0 (leaf_circuit ex_dummy) (fun o => o = leaf_public_inputs ex_dummy).
Proof. exact (leaf_sat H0 ex_dummy ex_dummy_wf ex_dummy_accepted). Qed.
(* the flag cannot be chosen: a non-dummy with flag 0, a dummy with flag 1 *)
Example C04_nv_flag_lie : forall post, ~ rel H0 (leaf_circuit ex_flag_lie) post.
Proof. apply leaf_unsat_b; vm_compute; reflexivity. Qed.
Example C04_nv_dummy_flag_lie : forall post, ~ rel H0 (leaf_circuit ex_dummy_flag_lie) post.
Proof. apply leaf_unsat_b; vm_compute; reflexivity. Qed.
(* zero block hash with a non-zero output is not a dummy: the header binding applies and fails *)
Example C04_nv_zero_hash_with_output :
  is_dummy_stmt ex_zero_hash_with_output = false /\
  forall post, ~ rel H0 (leaf_circuit ex_zero_hash_with_output) post.
Proof. split; [reflexivity|]. apply leaf_unsat_b; vm_compute; reflexivity. Qed.
(* a non-dummy accepted statement, so the hypotheses of C04_bindings_enforced are satisfiable *)
Example C04_nv_real : is_dummy_stmt ex_real = false /\
  hon H0 (leaf_circuit ex_real) = Some (leaf_public_inputs ex_real).
Proof. split; [exact ex_real_not_dummy|exact ex_real_accepted]. Qed.
