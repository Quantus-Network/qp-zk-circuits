(* C10 (public-batch part) - the public-batch wrapper leaves no witness freedom.

   [refines H c] (V.Circ.Core) :=  forall post, rel H c post <-> match hon H c with Some a => post a | None => False end
   i.e. whatever values an adversarial prover puts on the generator-computed wires (here: the equality
   hints of is_equal / bytes_digest_eq), the constraints of the wrapper are satisfiable exactly when the
   honest witness satisfies them, and then every satisfying witness yields the honest output.
   Model: Circ/PublicBatch.v; proofs: Circ/PublicBatchProofs.v. *)
From V.Base Require Import Common.
From V.Generated Require Import Constants.
From V.Circ Require Import Core PublicBatch PublicBatchProofs.
From V.Spec Require Import LeanPort.

Lemma C10_public_pin_inner_len : PR_LEAF_PI_LEN = 21 /\ PR_OUT_HEADER_LEN = 8.
Proof. split; reflexivity. Qed.

Theorem C10_public_batch_deterministic :
  forall (H : list Z -> list Z) (n : Z), 1 <= n ->
  forall (address : list Z) (inners : list (list Z)), Forall (inner_wf n) inners ->
    refines H (public_batch n address inners).
Proof. intros H n Hn address inners F. exact (gdet_refines H _ _ _ (gdet_public_batch H n Hn address inners F)). Qed.

Theorem C10_public_honest_value :
  forall (H : list Z -> list Z) (n : Z), 1 <= n ->
  forall (address : list Z) (inners : list (list Z)), Forall (inner_wf n) inners ->
    hon H (public_batch n address inners) =
    if pub_compat inners then Some (pub_output n address inners) else None.
Proof. intros H n Hn address inners F. apply (gdet_public_batch H n Hn address inners F). Qed.

Theorem C10_public_unique_output :
  forall (H : list Z -> list Z) (n : Z), 1 <= n ->
  forall (address : list Z) (inners : list (list Z)) (a b : list Z), Forall (inner_wf n) inners ->
    rel H (public_batch n address inners) (fun x => x = a) ->
    rel H (public_batch n address inners) (fun x => x = b) -> a = b.
Proof. intros H n Hn address inners a b F. apply refines_unique, C10_public_batch_deterministic; assumption. Qed.

Theorem C10_public_honest_fails_all_fail :
  forall (H : list Z -> list Z) (n : Z), 1 <= n ->
  forall (address : list Z) (inners : list (list Z)), Forall (inner_wf n) inners ->
    hon H (public_batch n address inners) = None ->
    forall post, ~ rel H (public_batch n address inners) post.
Proof. intros H n Hn address inners F. apply refines_honest_fails, C10_public_batch_deterministic; assumption. Qed.

(* non-vacuity: N = 2, M = 2 *)
Example C10_public_ex_H (l : list Z) : list Z := [1 + (fold_left Z.add l 0) mod 1000; 2; 3; 4].
Example C10_public_ex_inner (asset fee : Z) (bh : list Z) (bn base : Z) : list Z :=
  [4; asset; fee] ++ bh ++ [bn] ++ map (fun k => base + Z.of_nat k) (seq 0 28) ++ repeat 0 14.
Example C10_public_ex_good : list (list Z) :=
  [C10_public_ex_inner 7 25 [11; 12; 13; 14] 77 1000; C10_public_ex_inner 7 25 [11; 12; 13; 14] 77 2000].
Example C10_public_ex_bad : list (list Z) :=
  [C10_public_ex_inner 7 25 [11; 12; 13; 14] 77 1000; C10_public_ex_inner 7 26 [11; 12; 13; 14] 77 2000].
Example C10_public_ex_both_cases :
  Forall (inner_wf 2) C10_public_ex_good /\ Forall (inner_wf 2) C10_public_ex_bad /\
  hon C10_public_ex_H (public_batch 2 [1; 2; 3; 4] C10_public_ex_good)
  = Some (pub_output 2 [1; 2; 3; 4] C10_public_ex_good) /\
  hon C10_public_ex_H (public_batch 2 [1; 2; 3; 4] C10_public_ex_bad) = None.
Proof.
  split; [apply inners_wfb_spec; vm_compute; reflexivity|].
  split; [apply inners_wfb_spec; vm_compute; reflexivity|]. split; vm_compute; reflexivity.
Qed.
