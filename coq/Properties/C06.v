(* C06 - The public output of the private-batch wrapper circuit.

   For N child (leaf) statements that are well formed (21 canonical felts, both output amounts below
   2^32 - what the leaf circuit guarantees), N dummy-nullifier preimages and a hash with 4 canonical
   output felts, EVERY witness satisfying the constraints of build_private_batch_constraints
   (wormhole/aggregator/src/private_batch/circuit/circuit_logic.rs:171) registers exactly the public
   inputs [priv_output H leaves us] (21 N + 8 felts):
     [0]            2 N                                  number of exit slots
     [1]            asset id of slot 0                   (= every slot's asset id, C07)
     [2], [3..7), [7]   fee, block hash, block number of the FIRST REAL (non-zero block hash) slot, zeros if none
     [8 .. 8+10N)   2N exit slots (sum, account[4]): Lean's groupExits (maskedChildPairs leaves)
     [8+10N .. 8+14N)   the N selected nullifiers (real: the child's; dummy: H (H preimage)), ascending
     [8+14N .. 21N+8)   7 N zeros

   Model: Circ/PrivateBatch.v (transcription, run against the real circuit by harness bin wrappers);
   specification: Spec/LeanPort.v (port of formal/WormholeSpec/Aggregation.lean); proofs:
   Circ/PrivateBatchProofs.v.  Semantics (Circ/Core.v): [rel H c post] = some (adversarial) witness
   satisfies every constraint of c and its output satisfies post. *)
From Coq Require Import Permutation Sorted.
From V.Base Require Import Common.
From V.Generated Require Import Constants.
From V.Circ Require Import Field Core Prims Gadgets SortNet Sorting PrivateBatch PrivateBatchProofs.
From V.Spec Require Import LeanPort LeanPortFacts.

Local Open Scope Z_scope.

Lemma C06_pin_leaf_pi_len : PR_LEAF_PI_LEN = 21. Proof. reflexivity. Qed.
Lemma C06_pin_leaf_offsets :
  PR_ASSET_ID_START = 0 /\ PR_OUTPUT_AMOUNT_1_START = 1 /\ PR_OUTPUT_AMOUNT_2_START = 2 /\
  PR_VOLUME_FEE_BPS_START = 3 /\ PR_NULLIFIER_START = 4 /\ PR_EXIT_1_START = 8 /\ PR_EXIT_2_START = 12 /\
  PR_BLOCK_HASH_START = 16 /\ PR_BLOCK_NUMBER_START = 20.
Proof. repeat split; reflexivity. Qed.
Lemma C06_pin_out_header_len : PR_OUT_HEADER_LEN = 8. Proof. reflexivity. Qed.
Lemma C06_pin_out_exit_slot_len : PR_OUT_EXIT_SLOT_LEN = 5. Proof. reflexivity. Qed.
Lemma C06_pin_out_offsets :
  PR_OUT_NUM_EXIT_SLOTS_OFFSET = 0 /\ PR_OUT_ASSET_ID_OFFSET = 1 /\ PR_OUT_VOLUME_FEE_BPS_OFFSET = 2 /\
  PR_OUT_BLOCK_HASH_OFFSET = 3 /\ PR_OUT_BLOCK_NUMBER_OFFSET = 7.
Proof. repeat split; reflexivity. Qed.
Lemma C06_pin_max : MAX_PROOF_COUNT = 64. Proof. reflexivity. Qed.

Lemma C06_spec_leaf_wf q :
  leaf_wf q <-> (length q = 21%nat /\ Forall canon q /\ lf_out1 q < two32 /\ lf_out2 q < two32).
Proof. reflexivity. Qed.
Lemma C06_spec_dummy q : is_dummy_pb q = list_eqb (lf_bh q) [0; 0; 0; 0] /\ is_real_pb q = negb (is_dummy_pb q).
Proof. split; reflexivity. Qed.
Lemma C06_spec_masked q r :
  maskedChildPairs (q :: r) =
  (if is_dummy_pb q then ([0; 0; 0; 0], 0) else (lf_exit1 q, lf_out1 q)) ::
  (if is_dummy_pb q then ([0; 0; 0; 0], 0) else (lf_exit2 q, lf_out2 q)) :: maskedChildPairs r.
Proof. reflexivity. Qed.
Lemma C06_spec_matchSum k k' a' rest :
  matchSum k ((k', a') :: rest) = (if list_eqb k' k then a' else 0) + matchSum k rest.
Proof. reflexivity. Qed.
Lemma C06_spec_key_at xs k : key_at xs k = fst (nth k xs ([], 0)). Proof. reflexivity. Qed.
Lemma C06_spec_flat_slot s k : flat_slot (s, k) = s :: k. Proof. reflexivity. Qed.
Lemma C06_spec_selected H q r u ur :
  selected_nullifiers H (q :: r) (u :: ur) =
  (if is_dummy_pb q then H (H u) else lf_null q) :: selected_nullifiers H r ur.
Proof. reflexivity. Qed.
Lemma C06_spec_out_exit_slots n out : out_exit_slots n out = read_slots (2 * n) (skipn 8 out).
Proof. reflexivity. Qed.
Lemma C06_spec_read_slots n region :
  read_slots (S n) region = (nth 0 region 0, firstn 4 (skipn 1 region)) :: read_slots n (skipn 5 region).
Proof. reflexivity. Qed.

(* every satisfying witness registers exactly the specified public inputs *)
Theorem C06_private_batch_output : forall H,
  (forall l, length (H l) = 4%nat /\ Forall canon (H l)) ->
  forall leaves us, (1 <= length leaves <= 64)%nat -> Forall leaf_wf leaves -> length us = length leaves ->
  forall post, rel H (private_batch leaves us) post -> post (priv_output H leaves us).
Proof.
  intros H Hwf leaves us Hn W Lu post. exact (gdet_output H _ _ _ post (gdet_private_batch H Hwf leaves us Hn W Lu)).
Qed.

(* ... and such a witness exists iff the batch is compatible (C07); the honest prover finds it *)
Theorem C06_private_batch_spec : forall H,
  (forall l, length (H l) = 4%nat /\ Forall canon (H l)) ->
  forall leaves us, (1 <= length leaves <= 64)%nat -> Forall leaf_wf leaves -> length us = length leaves ->
  forall post, rel H (private_batch leaves us) post <->
               priv_compat leaves = true /\ post (priv_output H leaves us).
Proof. exact private_batch_spec. Qed.
Theorem C06_private_batch_honest : forall H,
  (forall l, length (H l) = 4%nat /\ Forall canon (H l)) ->
  forall leaves us, (1 <= length leaves <= 64)%nat -> Forall leaf_wf leaves -> length us = length leaves ->
  hon H (private_batch leaves us) = if priv_compat leaves then Some (priv_output H leaves us) else None.
Proof. intros H Hwf leaves us Hn W Lu. exact (proj2 (gdet_private_batch H Hwf leaves us Hn W Lu)). Qed.

Theorem C06_output_length : forall H,
  (forall l, length (H l) = 4%nat /\ Forall canon (H l)) ->
  forall leaves us, Forall leaf_wf leaves -> length us = length leaves ->
  length (priv_output H leaves us) = (21 * length leaves + 8)%nat.
Proof. intros H Hwf leaves us W Lu. apply priv_output_length; [exact Hwf|apply leaf_wf_fields_all, W|exact Lu]. Qed.

(* header: 2N, asset of slot 0, then fee / block hash / block number of the first real slot *)
Theorem C06_header : forall H leaves us, Forall leaf_wf leaves ->
  firstn 8 (priv_output H leaves us) =
  [2 * zlen leaves; lf_asset (nth 0 leaves [])] ++
  match find is_real_pb leaves with
  | Some q => [lf_fee q] ++ lf_bh q ++ [lf_bn q]
  | None => [0; 0; 0; 0; 0; 0]
  end.
Proof.
  intros H leaves us W. rewrite (priv_output_header H leaves us (leaf_wf_fields_all _ W)).
  unfold priv_header, ref_fee, ref_bh, ref_bn, ref_header. destruct (find is_real_pb leaves); reflexivity.
Qed.
(* under the acceptance condition the asset id of slot 0 is every slot's asset id *)
Theorem C06_header_asset_is_common : forall leaves, priv_compat leaves = true ->
  Forall (fun q => lf_asset q = lf_asset (nth 0 leaves [])) leaves.
Proof. exact priv_compat_assets. Qed.

(* exit region: 2N slots of 5 felts *)
Theorem C06_exit_region : forall H leaves us, Forall leaf_wf leaves ->
  firstn (10 * length leaves) (skipn 8 (priv_output H leaves us)) =
  flat_map flat_slot (groupExits (maskedChildPairs leaves)).
Proof. intros H leaves us W. apply priv_output_exit_region, leaf_wf_fields_all, W. Qed.
Theorem C06_exit_slots_decoded : forall H leaves us, Forall leaf_wf leaves ->
  out_exit_slots (length leaves) (priv_output H leaves us) = groupExits (maskedChildPairs leaves).
Proof. intros H leaves us W. apply priv_output_exit_slots, leaf_wf_fields_all, W. Qed.
(* the first slot of an account carries the sum of ALL masked amounts of that account ... *)
Theorem C06_first_occurrence_carries_group_sum : forall xs k d, (k < length xs)%nat ->
  (forall j, (j < k)%nat -> key_at xs j <> key_at xs k) ->
  nth k (groupExits xs) d = (matchSum (key_at xs k) xs, key_at xs k).
Proof. exact groupExits_first. Qed.
(* ... every later slot of the same account is the all-zero slot *)
Theorem C06_later_occurrences_zeroed : forall xs k d, (k < length xs)%nat ->
  (exists j, (j < k)%nat /\ key_at xs j = key_at xs k) ->
  nth k (groupExits xs) d = (0, zero4).
Proof. exact groupExits_later. Qed.

(* nullifier region: the per-slot selections, in ascending digest order *)
Theorem C06_nullifier_region : forall H,
  (forall l, length (H l) = 4%nat /\ Forall canon (H l)) ->
  forall leaves us, Forall leaf_wf leaves -> length us = length leaves ->
  firstn (4 * length leaves) (skipn (8 + 10 * length leaves) (priv_output H leaves us)) =
    concat (sort_spec (selected_nullifiers H leaves us)) /\
  StronglySorted digest_le (sort_spec (selected_nullifiers H leaves us)) /\
  Permutation (sort_spec (selected_nullifiers H leaves us)) (selected_nullifiers H leaves us).
Proof.
  intros H Hwf leaves us W Lu. split; [|split; [apply sort_spec_sorted|apply sort_spec_perm]].
  apply priv_output_null_region; [exact Hwf|apply leaf_wf_fields_all, W|exact Lu].
Qed.

Theorem C06_padding : forall H,
  (forall l, length (H l) = 4%nat /\ Forall canon (H l)) ->
  forall leaves us, Forall leaf_wf leaves -> length us = length leaves ->
  skipn (8 + 14 * length leaves) (priv_output H leaves us) = repeat 0 (7 * length leaves).
Proof. intros H Hwf leaves us W Lu. apply priv_output_padding; [exact Hwf|apply leaf_wf_fields_all, W|exact Lu]. Qed.

(* non-vacuity: a 3-slot batch
   (real, dummy with junk fields, real paying the same first account) and a concrete oracle *)
Example C06_ex_hypotheses :
  (forall l, length (H0 l) = 4%nat /\ Forall canon (H0 l)) /\ Forall leaf_wf ex_leaves /\
  length ex_us = length ex_leaves /\ priv_compat ex_leaves = true.
Proof. exact (conj H0_wf (conj ex_leaves_wf (conj eq_refl ex_compat))). Qed.
Example C06_ex_honest : hon H0 (private_batch ex_leaves ex_us) = Some (priv_output H0 ex_leaves ex_us).
Proof. exact ex_hon. Qed.
Example C06_ex_output :
  priv_output H0 ex_leaves ex_us =
  [6; 0; 5; 41; 42; 43; 44; 7] ++
  [40; 21; 22; 23; 24] ++ [20; 31; 32; 33; 34] ++ [0; 0; 0; 0; 0] ++ [0; 0; 0; 0; 0] ++ [0; 0; 0; 0; 0] ++
  [40; 51; 52; 53; 54] ++
  [11; 12; 13; 14] ++ [15; 16; 17; 18] ++ [19; 2; 3; 4] ++ repeat 0 21.
Proof. exact ex_out. Qed.
