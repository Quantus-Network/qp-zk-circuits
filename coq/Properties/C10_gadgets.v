(* C10 (gadget part) - the comparison gadgets leave no witness freedom.

   [refines H c] (V.Circ.Core) :=  forall post, rel H c post <-> match hon H c with Some a => post a | None => False end
   i.e. whatever values an adversarial prover puts on the generator-computed wires (equality hints,
   canonical 32-bit splits, bit decompositions, comparison bits), the constraints of [c] are
   satisfiable exactly when the honest witness satisfies them, and then every satisfying witness
   yields the honest output.  Model: V.Circ.Gadgets (common/src/gadgets.rs); proofs: V.Circ.GadgetsProofs.
   (The sorting gadget and the batch wrappers have their own files.) *)
From V.Base Require Import Common.
From V.Circ Require Import Field Core Prims Gadgets GadgetsProofs.

Theorem C10_refines_is_equal :
  forall (H : list Z -> list Z) (x y : Z), canon x -> canon y -> refines H (is_equal x y).
Proof. exact refines_is_equal. Qed.

Theorem C10_refines_split_canonical :
  forall (H : list Z -> list Z) (x : Z), canon x -> refines H (split_canonical_u32_halves x).
Proof. intros H x Hx. eapply gdet_refines, det_split_canonical, Hx. Qed.

Theorem C10_refines_u32_lt :
  forall (H : list Z -> list Z) (x y : Z), 0 <= x < two32 -> 0 <= y < two32 -> refines H (u32_lt x y).
Proof. exact refines_u32_lt. Qed.

Theorem C10_refines_is_const_less_than :
  forall (H : list Z -> list Z) (w : nat) (c x : Z),
    (1 <= w <= 64)%nat -> 0 <= c < 2 ^ Z.of_nat w -> canon x ->
    refines H (is_const_less_than c x w).
Proof. exact refines_is_const_less_than. Qed.

Theorem C10_refines_enforce_target_less_than_const :
  forall (H : list Z -> list Z) (w : nat) (ub x : Z),
    (1 <= w <= 64)%nat -> 0 < ub -> ub - 1 < 2 ^ Z.of_nat w -> canon x ->
    refines H (enforce_target_less_than_const x ub w).
Proof. intros H w ub x Hw Hub Hfit Hx. eapply gdet_refines, gdet_enforce_target_less_than_const; assumption. Qed.

Theorem C10_refines_bytes_digest_eq :
  forall (H : list Z -> list Z) (a c : list Z), length a = 4%nat -> length c = 4%nat ->
    Forall canon a -> Forall canon c -> refines H (bytes_digest_eq a c).
Proof. exact refines_bytes_digest_eq. Qed.

Theorem C10_refines_halves8_lt :
  forall (H : list Z -> list Z) (lhs rhs : list Z), length lhs = length rhs ->
    Forall (fun v => 0 <= v < two32) lhs -> Forall (fun v => 0 <= v < two32) rhs ->
    refines H (halves8_lt lhs rhs).
Proof. exact refines_halves8_lt. Qed.

Theorem C10_hon_is_const_less_than_narrow :
  forall (H : list Z -> list Z) (w : nat) (c x : Z),
    (1 <= w <= 63)%nat -> 0 <= c < 2 ^ Z.of_nat w -> canon x ->
    hon H (is_const_less_than c x w) = if x <? 2 ^ Z.of_nat w then Some (b2z (c <? x)) else None.
Proof. intros H w c x Hw Hc Hx. apply gdet_hon, gdet_is_const_less_than; [lia|assumption|assumption]. Qed.

Theorem C10_hon_is_const_less_than_64 :
  forall (H : list Z -> list Z) (c x : Z), 0 <= c < two64 -> canon x ->
    hon H (is_const_less_than c x 64) = Some (b2z (c <? x)).
Proof. intros H c x Hc Hx. apply det_hon, det_is_const_less_than_64; assumption. Qed.

Theorem C10_hon_split_canonical :
  forall (H : list Z -> list Z) (x : Z), canon x ->
    hon H (split_canonical_u32_halves x) = Some (x mod two32, x / two32).
Proof. intros H x Hx. apply det_hon, det_split_canonical, Hx. Qed.

Theorem C10_hon_u32_lt :
  forall (H : list Z -> list Z) (x y : Z), 0 <= x < two32 -> 0 <= y < two32 ->
    hon H (u32_lt x y) = Some (b2z (x <? y)).
Proof. intros H x y Hx Hy. apply det_hon, det_u32_lt; assumption. Qed.

Theorem C10_hon_bytes_digest_eq :
  forall (H : list Z -> list Z) (a c : list Z), length a = 4%nat -> length c = 4%nat ->
    hon H (bytes_digest_eq a c) = Some (b2z (list_eqb a c)).
Proof. exact hon_bytes_digest_eq. Qed.

Theorem C10_hon_halves8_lt :
  forall (H : list Z -> list Z) (lhs rhs : list Z), length lhs = length rhs ->
    Forall (fun v => 0 <= v < two32) lhs -> Forall (fun v => 0 <= v < two32) rhs ->
    hon H (halves8_lt lhs rhs) = Some (b2z (lex_ltb lhs rhs)).
Proof. intros H lhs rhs _ Fl Fr. apply det_hon, det_halves8_lt; assumption. Qed.

(* corollaries, for the comparison gadget and the bounded-target check:
   two satisfying witnesses give the same output; if the honest witness fails, every witness fails *)
Theorem C10_unique_output :
  forall (H : list Z -> list Z) (w : nat) (c x a b : Z),
    (1 <= w <= 64)%nat -> 0 <= c < 2 ^ Z.of_nat w -> canon x ->
    rel H (is_const_less_than c x w) (fun o => o = a) ->
    rel H (is_const_less_than c x w) (fun o => o = b) -> a = b.
Proof. intros H w c x a b Hw Hc Hx. apply refines_unique. apply refines_is_const_less_than; assumption. Qed.

Theorem C10_honest_fails_all_fail :
  forall (H : list Z -> list Z) (w : nat) (c x : Z),
    (1 <= w <= 64)%nat -> 0 <= c < 2 ^ Z.of_nat w -> canon x ->
    hon H (is_const_less_than c x w) = None ->
    forall post, ~ rel H (is_const_less_than c x w) post.
Proof. intros H w c x Hw Hc Hx. apply refines_honest_fails. apply refines_is_const_less_than; assumption. Qed.

Theorem C10_enforce_honest_fails_all_fail :
  forall (H : list Z -> list Z) (w : nat) (ub x : Z),
    (1 <= w <= 64)%nat -> 0 < ub -> ub - 1 < 2 ^ Z.of_nat w -> canon x ->
    hon H (enforce_target_less_than_const x ub w) = None ->
    forall post, ~ rel H (enforce_target_less_than_const x ub w) post.
Proof. intros H w ub x Hw Hub Hf Hx. apply refines_honest_fails. apply C10_refines_enforce_target_less_than_const; assumption. Qed.

Theorem C10_unique_output_split_canonical :
  forall (H : list Z -> list Z) (x : Z) (a b : Z * Z), canon x ->
    rel H (split_canonical_u32_halves x) (fun o => o = a) ->
    rel H (split_canonical_u32_halves x) (fun o => o = b) -> a = b.
Proof. intros H x a b Hx. apply refines_unique, C10_refines_split_canonical, Hx. Qed.

Theorem C10_unique_output_halves8_lt :
  forall (H : list Z -> list Z) (lhs rhs : list Z) (a b : Z), length lhs = length rhs ->
    Forall (fun v => 0 <= v < two32) lhs -> Forall (fun v => 0 <= v < two32) rhs ->
    rel H (halves8_lt lhs rhs) (fun o => o = a) ->
    rel H (halves8_lt lhs rhs) (fun o => o = b) -> a = b.
Proof. intros H lhs rhs a b L Fl Fr. apply refines_unique. apply refines_halves8_lt; assumption. Qed.

Theorem C10_unique_output_bytes_digest_eq :
  forall (H : list Z -> list Z) (a c : list Z) (u v : Z), length a = 4%nat -> length c = 4%nat ->
    Forall canon a -> Forall canon c ->
    rel H (bytes_digest_eq a c) (fun o => o = u) ->
    rel H (bytes_digest_eq a c) (fun o => o = v) -> u = v.
Proof. intros H a c u v La Lc Fa Fc. apply refines_unique. apply refines_bytes_digest_eq; assumption. Qed.

(* the notion is not vacuous: the raw plonky2 split_low_high(x, 32, 64), without the wraparound
   exclusion of split_canonical_u32_halves, does NOT refine its honest generator for x < 2^32 - 1 *)
Theorem C10_raw_split64_has_witness_freedom :
  forall (H : list Z -> list Z) (x : Z), 0 <= x < two32 - 1 -> ~ refines H (split_low_high x 32 64).
Proof. exact split_low_high_64_not_refines. Qed.

Definition H0 : list Z -> list Z := fun _ => [0; 0; 0; 0].

Example C10_nv_unique_hyps : forall H,
  rel H (is_const_less_than 16 17 5) (fun o => o = 1) /\ hon H (is_const_less_than 16 17 5) = Some 1.
Proof.
  intros H. split; [|reflexivity].
  eapply gdet_rel; [apply gdet_is_const_less_than; [lia|lia|apply is_canon_spec; reflexivity]|].
  split; reflexivity.
Qed.
Example C10_nv_honest_fails : hon H0 (is_const_less_than 3 40 5) = None. Proof. vm_compute. reflexivity. Qed.
Example C10_nv_enforce_fails : hon H0 (enforce_target_less_than_const 17 17 5) = None. Proof. vm_compute. reflexivity. Qed.
Example C10_nv_split_pm1 : hon H0 (split_canonical_u32_halves (p - 1)) = Some (0, two32 - 1). Proof. vm_compute. reflexivity. Qed.
Example C10_nv_split_0 : hon H0 (split_canonical_u32_halves 0) = Some (0, 0). Proof. vm_compute. reflexivity. Qed.
Example C10_nv_u32_lt : hon H0 (u32_lt 5 (two32 - 1)) = Some 1 /\ hon H0 (u32_lt (two32 - 1) 5) = Some 0 /\ hon H0 (u32_lt 7 7) = Some 0.
Proof. vm_compute. split; [|split]; reflexivity. Qed.
Example C10_nv_digest_eq : hon H0 (bytes_digest_eq [1; 2; 3; p - 1] [1; 2; 3; p - 1]) = Some 1 /\
                           hon H0 (bytes_digest_eq [1; 2; 3; 4] [1; 2; 0; 4]) = Some 0.
Proof. vm_compute. split; reflexivity. Qed.
Example C10_nv_halves8 :
  hon H0 (halves8_lt [1; 2; 3; 4; 5; 6; 7; 8] [1; 2; 3; 4; 5; 6; 7; 9]) = Some 1 /\
  hon H0 (halves8_lt [1; 2; 3; 4; 5; 6; 7; 8] [1; 2; 3; 4; 5; 6; 7; 8]) = Some 0 /\
  hon H0 (halves8_lt [2; 0; 0; 0; 0; 0; 0; 0] [1; 9; 9; 9; 9; 9; 9; 9]) = Some 0.
Proof. vm_compute. split; [|split]; reflexivity. Qed.
