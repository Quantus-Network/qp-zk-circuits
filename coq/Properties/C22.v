(* C22 - The admission verification budget bounds verification work.
   Model: Sys/Pool.v ([o_verified]: the step called the verifier; [o_restarted]: the step restarted
   the window); proofs: Sys/PoolProofs.v. *)
From V.Base Require Import Common.
From V.Sys Require Import Pool PoolProofs.

(* in any stretch of any history that contains no window restart, the verifier calls (failed ones
   included: [o_verified] is set before the verdict is looked at) plus the attempts already counted do
   not exceed the budget; and the counter is exact *)
Theorem C22_budget : forall cfg st ops,
  0 <= c_budget cfg -> 0 <= s_verifs st <= c_budget cfg ->
  Forall (fun o => o_restarted o = false) (snd (run cfg st ops)) ->
  s_verifs st + verify_calls (snd (run cfg st ops)) <= c_budget cfg
  /\ s_verifs (fst (run cfg st ops)) = s_verifs st + verify_calls (snd (run cfg st ops)).
Proof.
  intros cfg st ops _ Hok Hn. pose proof (run_counts cfg ops st Hn) as E.
  split; [|exact E]. rewrite <- E. exact (proj2 (run_budget_ok cfg st ops Hok)).
Qed.

(* a whole window - the step that restarts it, then any history up to the next restart - sees at most
   [budget] verifier calls *)
Theorem C22_budget_window : forall cfg st o ops,
  0 <= c_budget cfg -> 0 <= s_verifs st <= c_budget cfg ->
  o_restarted (snd (step cfg st o)) = true ->
  Forall (fun x => o_restarted x = false) (snd (run cfg (fst (step cfg st o)) ops)) ->
  verify_calls (snd (step cfg st o) :: snd (run cfg (fst (step cfg st o)) ops)) <= c_budget cfg.
Proof.
  intros cfg st o ops _ Hok Hr Hn. cbn [verify_calls].
  pose proof (run_counts cfg ops _ Hn) as E.
  pose proof (run_budget_ok cfg _ ops (step_budget_ok cfg st o Hok)) as H.
  destruct (step_budget cfg st o) as (_ & H2 & _). rewrite Hr in H2. lia.
Qed.

(* the counter never leaves [0, budget] in any history from a fresh pool *)
Theorem C22_counter_bounded : forall cfg t0 ops,
  0 <= c_budget cfg -> 0 <= s_verifs (fst (run cfg (init t0) ops)) <= c_budget cfg.
Proof. intros cfg t0 ops Hb. apply run_budget_ok. cbn. lia. Qed.

(* the window restarts only in a push, only once a full window has elapsed since its start, and then
   starts now; without a restart the start is kept and the counter grows by exactly the verifier calls *)
Theorem C22_window_restart : forall cfg st o,
  0 < c_window cfg ->
  (o_restarted (snd (step cfg st o)) = true ->
     (exists pr, o = Push pr) /\ s_now st - s_win_start st >= c_window cfg
     /\ s_win_start (fst (step cfg st o)) = s_now st)
  /\ (o_restarted (snd (step cfg st o)) = false ->
     s_win_start (fst (step cfg st o)) = s_win_start st
     /\ s_verifs (fst (step cfg st o)) = s_verifs st + b2z (o_verified (snd (step cfg st o)))).
Proof.
  intros cfg st o W. destruct (step_budget cfg st o) as (H1 & H2 & H3 & _). split; intro Hr; rewrite Hr in *.
  - destruct (H1 eq_refl) as [Hp Hrs]. apply restarts_spec in Hrs; auto.
  - split; [exact H3|exact H2].
Qed.

(* an exhausted budget rejects further pushes without verifying (and without touching the pool) *)
Theorem C22_exhausted_no_verify : forall cfg st pr,
  c_budget cfg <= window_verifs cfg st ->
  o_verified (snd (step cfg st (Push pr))) = false
  /\ (exists c, o_ret (snd (step cfg st (Push pr))) = RPush (Err c))
  /\ s_buckets (fst (step cfg st (Push pr))) = s_buckets st
  /\ s_index (fst (step cfg st (Push pr))) = s_index st.
Proof.
  intros cfg st pr H. cbn [step].
  destruct (push_spec cfg st pr) as [c _|k nulls vol _ _|c k nulls vol _ Hb _|k nulls vol _ Hb _ _ _]; try lia; eauto.
Qed.

(* conversely the verifier is called whenever budget is left (pool not full, well-formed, not dummy), so
   the bound of C22_budget is attained *)
Theorem C22_budget_left_verifies : forall cfg st pr k nulls vol,
  total_len (s_buckets st) < c_max_proofs cfg -> parse_metadata cfg pr = Ok (k, nulls, vol) -> is_dummy k = false ->
  window_verifs cfg st < c_budget cfg -> o_verified (snd (step cfg st (Push pr))) = true.
Proof.
  intros cfg st pr k nulls vol Hl Hp Hd Hb. cbn [step].
  destruct (push_spec cfg st pr) as [c He|k' nulls' vol' _ Hb'| |]; [|lia|reflexivity|reflexivity].
  destruct (early_reject_passes cfg st pr c k nulls vol He). repeat split; assumption.
Qed.

(* non-vacuity: budget 2, window 100; failed attempts count; the boundary is [>=] *)
Definition ex_pis (null0 : Z) : list Z :=
  [2; 0; 10; 1; 0; 0; 0; 77; 100; 0; 0; 0; 0; 50; 0; 0; 0; 0; null0; 0; 0; 0] ++ repeat 0 7.
Definition ex_cfg : config := mkConfig 9 9 2 2 100 1 29.
Definition ex_history : list op :=
  [ Push (mkProof (ex_pis 11) false); Push (mkProof (ex_pis 11) true); Push (mkProof (ex_pis 12) true);
    Advance 99; Push (mkProof (ex_pis 12) true);      (* 99 ns into the window: still exhausted *)
    Advance 1; Push (mkProof (ex_pis 12) true);       (* exactly 100 ns: restart *)
    Push (mkProof (ex_pis 13) false); Push (mkProof (ex_pis 13) true) ].
Example C22_example :
  map (fun o => (o_verified o, o_restarted o)) (snd (run ex_cfg (init 0) ex_history))
  = [ (true, false); (true, false); (false, false); (false, false); (false, false); (false, false);
      (true, true); (true, false); (false, false) ]
  /\ map o_ret (snd (run ex_cfg (init 0) ex_history))
  = [ RPush (Err E_VERIFY); RPush (Ok [1; 0; 0; 0; 0; 10]); RPush (Err E_BUDGET); RUnit; RPush (Err E_BUDGET); RUnit;
      RPush (Ok [1; 0; 0; 0; 0; 10]); RPush (Err E_VERIFY); RPush (Err E_BUDGET) ].
Proof. pattern (snd (run ex_cfg (init 0) ex_history)). vm_compute. split; reflexivity. Qed.

(* Observation (fixed-window counter, as documented in pool.rs): the bound is per window of the pool, not
   per sliding interval - 2 x budget verifier calls can fall within 1 ns of real time around a restart. *)
Example C22_example_two_budgets_across_a_restart :
  let h := [ Advance 99; Push (mkProof (ex_pis 11) false); Push (mkProof (ex_pis 11) false);
             Advance 1; Push (mkProof (ex_pis 11) false); Push (mkProof (ex_pis 11) false) ] in
  verify_calls (snd (run ex_cfg (init 0) h)) = 2 * c_budget ex_cfg
  /\ map o_restarted (snd (run ex_cfg (init 0) h)) = [false; false; false; false; true; false].
Proof. intro h. pattern (snd (run ex_cfg (init 0) h)). vm_compute. split; reflexivity. Qed.
