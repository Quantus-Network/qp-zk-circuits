(* C30 - the less-than gadget computes the integer comparison for every input.

   Model: V.Circ.Gadgets (line-by-line transcription of common/src/gadgets.rs: is_const_less_than,
   is_const_less_than_canonical_u64, u32_lt, split_canonical_u32_halves,
   enforce_target_less_than_const) over the circuit semantics of V.Circ.Core:
     [rel H c post]  - some assignment of ALL hint wires (equality hints, bit decompositions, low/high
                       pairs: arbitrary field elements) satisfies every constraint of [c] and the
                       output satisfies [post]   (adversarial prover);
     [hon H c]       - what the honest witness generators produce ([None] = the honest witness violates
                       a constraint).
   [c] is the builder-time constant [left], [x] the canonical value of the target [right], [w] = n_log.
   The builder-time assertions of gadgets.rs (0 < n_log <= 64, left < 2^n_log, bound > 0) are the
   hypotheses on [w], [c], [ub].  All proofs are in V.Circ.GadgetsProofs. *)
From V.Base Require Import Common.
From V.Generated Require Import Constants.
From V.Circ Require Import Field Core Prims Gadgets GadgetsProofs.

Lemma C30_pin_p : p = FIELD_ORDER. Proof. reflexivity. Qed.
Lemma C30_pin_two32 : two32 = 2 ^ 32 /\ two64 = 2 ^ 64 /\ p = two64 - two32 + 1. Proof. split; [reflexivity|split; reflexivity]. Qed.

(* widths 1..63: satisfiable iff x < 2^w, and then the output is exactly (c < x) *)
Theorem C30_lt_narrow :
  forall (H : list Z -> list Z) (w : nat) (c x : Z) (post : Z -> Prop),
    (1 <= w <= 63)%nat -> 0 <= c < 2 ^ Z.of_nat w -> canon x ->
    (rel H (is_const_less_than c x w) post <-> x < 2 ^ Z.of_nat w /\ post (b2z (c <? x))).
Proof.
  intros H w c x post Hw Hc Hx. rewrite <- Z.ltb_lt.
  apply gdet_rel, gdet_is_const_less_than; [lia|assumption|assumption].
Qed.

(* width 64: always satisfiable, output is the integer comparison - the x + p alias cannot flip it *)
Theorem C30_lt_64 :
  forall (H : list Z -> list Z) (c x : Z) (post : Z -> Prop),
    0 <= c < two64 -> canon x ->
    (rel H (is_const_less_than c x 64) post <-> post (b2z (c <? x))).
Proof. intros H c x post Hc Hx. apply det_rel, det_is_const_less_than_64; assumption. Qed.

(* the bounded-target check accepts exactly the values below its bound, every width 1..64
   (for w = 64 the hypothesis reads ub - 1 < 2^64) *)
Theorem C30_enforce_lt :
  forall (H : list Z -> list Z) (w : nat) (ub x : Z) (post : unit -> Prop),
    (1 <= w <= 64)%nat -> 0 < ub -> ub - 1 < 2 ^ Z.of_nat w -> canon x ->
    (rel H (enforce_target_less_than_const x ub w) post <-> x < ub /\ post tt).
Proof.
  intros H w ub x post Hw Hub Hfit Hx. rewrite <- Z.ltb_lt.
  apply gdet_rel, gdet_enforce_target_less_than_const; assumption.
Qed.

(* honest witness generation: same outputs, fails exactly where no witness exists *)
Theorem C30_hon_lt_narrow :
  forall (H : list Z -> list Z) (w : nat) (c x : Z),
    (1 <= w <= 63)%nat -> 0 <= c < 2 ^ Z.of_nat w -> canon x ->
    hon H (is_const_less_than c x w) = if x <? 2 ^ Z.of_nat w then Some (b2z (c <? x)) else None.
Proof. intros H w c x Hw Hc Hx. apply gdet_hon, gdet_is_const_less_than; [lia|assumption|assumption]. Qed.

Theorem C30_hon_lt_64 :
  forall (H : list Z -> list Z) (c x : Z),
    0 <= c < two64 -> canon x ->
    hon H (is_const_less_than c x 64) = Some (b2z (c <? x)).
Proof. intros H c x Hc Hx. apply det_hon, det_is_const_less_than_64; assumption. Qed.

Theorem C30_hon_enforce_lt :
  forall (H : list Z -> list Z) (w : nat) (ub x : Z),
    (1 <= w <= 64)%nat -> 0 < ub -> ub - 1 < 2 ^ Z.of_nat w -> canon x ->
    hon H (enforce_target_less_than_const x ub w) = if x <? ub then Some tt else None.
Proof. intros H w ub x Hw Hub Hfit Hx. apply gdet_hon, gdet_enforce_target_less_than_const; assumption. Qed.

Theorem C30_bit_comparator :
  forall a_bits b_bits : list Z, length a_bits = length b_bits ->
    Forall bitZ a_bits -> Forall bitZ b_bits ->
    lt_loop (rev (combine a_bits b_bits)) 0 1 = b2z (bsum a_bits <? bsum b_bits).
Proof. exact lt_loop_spec. Qed.

Theorem C30_split_canonical :
  forall (H : list Z -> list Z) (x : Z) (post : Z * Z -> Prop), canon x ->
    (rel H (split_canonical_u32_halves x) post <-> post (x mod two32, x / two32)).
Proof. intros H x post Hx. apply det_rel, det_split_canonical, Hx. Qed.

Theorem C30_u32_lt :
  forall (H : list Z -> list Z) (x y : Z) (post : Z -> Prop),
    0 <= x < two32 -> 0 <= y < two32 ->
    (rel H (u32_lt x y) post <-> post (b2z (x <? y))).
Proof. intros H x y post Hx Hy. apply det_rel, det_u32_lt; assumption. Qed.

(* why the canonical split is needed: the raw split_low_high(x, 32, 64) has exactly two solutions
   for x < 2^32 - 1 (the second one is the 64-bit integer x + p) and one otherwise *)
Theorem C30_raw_split_two_solutions :
  forall (H : list Z -> list Z) (x : Z) (post : Z * Z -> Prop), canon x ->
    (rel H (split_low_high x 32 64) post <->
     (post (x mod two32, x / two32) \/
      (x < two32 - 1 /\ post ((x + p) mod two32, (x + p) / two32)))).
Proof. exact rel_split_low_high_64. Qed.

Definition H0 : list Z -> list Z := fun _ => [0; 0; 0; 0].

(* (w, c, x) = (5, 16, 17): satisfiable with output 1, for every hash function *)
Example C30_nv_5_16_17 : forall H, rel H (is_const_less_than 16 17 5) (fun o => o = 1).
Proof. intros H. apply C30_lt_narrow; [lia|lia|apply is_canon_spec; reflexivity|]. split; [lia|reflexivity]. Qed.
Example C30_nv_5_16_17_not_0 : forall H, ~ rel H (is_const_less_than 16 17 5) (fun o => o = 0).
Proof.
  intros H R. apply C30_lt_narrow in R; [|lia|lia|apply is_canon_spec; reflexivity].
  destruct R as [_ R]. discriminate R.
Qed.
(* out of range for the width: unsatisfiable *)
Example C30_nv_5_3_40_unsat : forall H post, ~ rel H (is_const_less_than 3 40 5) post.
Proof.
  intros H post R. apply C30_lt_narrow in R; [|lia|lia|apply is_canon_spec; reflexivity].
  destruct R as [R _]. cbn in R. lia.
Qed.
(* width 64, x = 0: "0 < 0" cannot be proved (the attack of gadgets.rs's alias test) *)
Example C30_nv_64_zero_alias : forall H, ~ rel H (is_const_less_than 0 0 64) (fun o => o = 1).
Proof.
  intros H R. apply C30_lt_64 in R; [|unfold two64; lia|apply canon_0]. discriminate R.
Qed.
(* ... although the raw split does accept the alias (1, 2^32 - 1) of 0 *)
Example C30_nv_raw_alias : forall H, rel H (split_low_high 0 32 64) (fun lh => lh = (1, two32 - 1)).
Proof. intros H. apply (split_low_high_64_alias_sat H 0). unfold two32; lia. Qed.

Example C30_nv_hon_5_16_17 : hon H0 (is_const_less_than 16 17 5) = Some 1. Proof. vm_compute. reflexivity. Qed.
Example C30_nv_hon_5_17_16 : hon H0 (is_const_less_than 17 16 5) = Some 0. Proof. vm_compute. reflexivity. Qed.
Example C30_nv_hon_5_3_40 : hon H0 (is_const_less_than 3 40 5) = None. Proof. vm_compute. reflexivity. Qed.
Example C30_nv_hon_1_0_0 : hon H0 (is_const_less_than 0 0 1) = Some 0. Proof. vm_compute. reflexivity. Qed.
Example C30_nv_hon_1_0_1 : hon H0 (is_const_less_than 0 1 1) = Some 1. Proof. vm_compute. reflexivity. Qed.
Example C30_nv_hon_63 : hon H0 (is_const_less_than (2 ^ 63 - 1) (2 ^ 63) 63) = None. Proof. vm_compute. reflexivity. Qed.
Example C30_nv_hon_64_0_0 : hon H0 (is_const_less_than 0 0 64) = Some 0. Proof. vm_compute. reflexivity. Qed.
Example C30_nv_hon_64_0_1 : hon H0 (is_const_less_than 0 1 64) = Some 1. Proof. vm_compute. reflexivity. Qed.
Example C30_nv_hon_64_0_pm1 : hon H0 (is_const_less_than 0 (p - 1) 64) = Some 1. Proof. vm_compute. reflexivity. Qed.
Example C30_nv_hon_64_pm2_pm1 : hon H0 (is_const_less_than (p - 2) (p - 1) 64) = Some 1. Proof. vm_compute. reflexivity. Qed.
Example C30_nv_hon_64_pm1_pm1 : hon H0 (is_const_less_than (p - 1) (p - 1) 64) = Some 0. Proof. vm_compute. reflexivity. Qed.
Example C30_nv_hon_64_max_pm1 : hon H0 (is_const_less_than (two64 - 1) (p - 1) 64) = Some 0. Proof. vm_compute. reflexivity. Qed.
Example C30_nv_hon_64_lo_hi : hon H0 (is_const_less_than (two32 - 1) two32 64) = Some 1. Proof. vm_compute. reflexivity. Qed.
Example C30_nv_hon_enforce_ok : hon H0 (enforce_target_less_than_const 16 17 5) = Some tt. Proof. vm_compute. reflexivity. Qed.
Example C30_nv_hon_enforce_eq : hon H0 (enforce_target_less_than_const 17 17 5) = None. Proof. vm_compute. reflexivity. Qed.
Example C30_nv_hon_enforce_64 : hon H0 (enforce_target_less_than_const (p - 1) p 64) = Some tt. Proof. vm_compute. reflexivity. Qed.
Example C30_nv_enforce : forall H, rel H (enforce_target_less_than_const 16 17 5) (fun _ => True).
Proof.
  intros H. apply C30_enforce_lt; [lia|lia|cbn; lia|apply is_canon_spec; reflexivity|]. split; [lia|exact I].
Qed.
