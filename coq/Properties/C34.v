(* C34 (Coq part): the code matches the spec's definitions.  The Gallina port of the Lean executable
   definitions is coq/Spec/LeanPort.v; these statements say what that port IS (so a reader can compare
   it with formal/WormholeSpec/Aggregation.lean line by line), and the spec's conservation theorem is
   proved for the port (the statement of C08's pure form, from the same lemma).  The bridge "circuit
   output = these definitions, for all inputs" is C06's main theorem (Properties/C06.v); the Lean side
   itself is checked by the tool run in lib/props/c34.py. *)
From Coq Require Import ZArith List Bool.
From V.Base Require Import Common.
From V.Circ Require Import Field Core PrivateBatch PrivateBatchProofs.
From V.Spec Require Import LeanPort.
Import ListNotations.
Open Scope Z_scope.

Theorem C34_port_maskedChildPairs : forall p rest,
  maskedChildPairs (p :: rest) =
    (if is_dummy_pb p then (zero4, 0) else (lf_exit1 p, lf_out1 p)) ::
    (if is_dummy_pb p then (zero4, 0) else (lf_exit2 p, lf_out2 p)) :: maskedChildPairs rest.
Proof. reflexivity. Qed.

Theorem C34_port_matchSum : forall k k' a' rest,
  matchSum k ((k', a') :: rest) = (if list_eqb k' k then a' else 0) + matchSum k rest.
Proof. reflexivity. Qed.

Theorem C34_port_groupAux : forall seen k a rest,
  groupAux seen ((k, a) :: rest) =
    (if dmem k seen then (0, zero4) else (a + matchSum k rest, k)) :: groupAux (k :: seen) rest.
Proof. reflexivity. Qed.

Theorem C34_port_groupExits : forall xs, groupExits xs = groupAux [] xs.
Proof. reflexivity. Qed.

Theorem C34_port_reference : forall leaves,
  ref_header leaves = match find is_real_pb leaves with
                      | Some p => (lf_fee p, lf_bh p, lf_bn p)
                      | None => (0, zero4, 0)
                      end.
Proof. reflexivity. Qed.

(* the bridge: for ALL batches (not only the explored ones) the circuit's grouped exit slots, first-real
   reference and nullifier ordering are the ported spec definitions *)
Theorem C34_circuit_matches_spec : forall H,
  (forall l, length (H l) = 4%nat /\ Forall canon (H l)) ->
  forall leaves us, (1 <= length leaves <= 64)%nat -> Forall leaf_wf leaves -> length us = length leaves ->
  forall post, rel H (private_batch leaves us) post <->
               priv_compat leaves = true /\ post (priv_output H leaves us).
Proof. exact private_batch_spec. Qed.

Theorem C34_spec_conservation : forall leaves,
  slotsTotal (groupExits (maskedChildPairs leaves)) = inputExitTotal leaves.
Proof. exact conservation. Qed.
