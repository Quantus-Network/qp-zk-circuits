(* C11 - Recursive verification accepts only the canonical child circuit.

   "A private-batch circuit built for the canonical leaf circuit is unsatisfiable for any child proof produced by a
    different circuit, including circuits with the same configuration and public-input count.  The same holds for a
    public-batch circuit and the canonical private-batch circuit.  Constructors refuse child circuits whose
    public-input count differs from the expected layout."

   LEVEL: PARTIAL.  What is proved here is the WIRING of the recursive layer, over the model Circ/Recursion.v
   (hand-written after common/recursive.rs: add_recursive_verifiers, PrivateBatchCircuit::new, PublicBatchCircuit::new):
     - C11_vk_is_constant_*     every slot is verified against the ONE key the circuit was built with (in the model
                                the key is a field of the built circuit, not a witness: by construction - the
                                harness checks that the real circuit leaves no key wire to the prover, fid 1105);
     - C11_ctor_*               the constructors' public-input-count checks, exactly;
     - C11_foreign_proof_unsatisfiable_*   under the EXPLICIT PREMISES of knowledge soundness
                                ([Verify vk pis pf = true -> produced_by vk pf]) and of "a proof belongs to one
                                circuit", a child proof produced by another circuit makes the outer circuit
                                unsatisfiable - whatever its configuration, shape and public inputs.
   NOT proved: the premises (cryptography of plonky2/FRI, collision resistance of the circuit digest), and that the
   in-circuit verify_proof gadget is satisfiable exactly when native verification accepts.  These are validated by
   execution: harness/src/bin/recursion.rs runs the real circuits on own proofs and on valid proofs of foreign
   circuits (same CommonCircuitData / different key, different degree, other shape), with an adversarial prover.

   Vocabulary: [VK] verifier-only data of a circuit; [Verify vk pis pf] native verification; a child is (public inputs,
   proof); [private_batch_sat c children pre out] = the circuit [c] is satisfiable with these child proofs, dummy
   pre-images [pre] and public outputs [out]: every child verifies under [pb_vk c] AND the wrapper relation of
   Circ/PrivateBatch.v holds for an arbitrary prover ([rel]) over the children's public inputs. *)
From V.Base Require Import Common.
From V.Generated Require Import Constants.
From V.Circ Require Import Recursion RecursionProofs.
From V.Sys Require Parsers.

Lemma C11_pin_leaf_pi_len : PR_LEAF_PI_LEN = 21 /\ LEAF_PI_LEN = 21. Proof. split; reflexivity. Qed.
Lemma C11_pin_max_proof_count : MAX_PROOF_COUNT = 64. Proof. reflexivity. Qed.
Lemma C11_pin_private_batch_pi_len :
  forall n, 1 <= n <= 64 -> Parsers.pr_pi_len n = 21 * n + 8.
Proof. intros. apply pr_pi_len_exact. unfold MAX_PROOF_COUNT. assumption. Qed.
Lemma C11_pin_header : PR_OUT_HEADER_LEN = 8. Proof. reflexivity. Qed.

Theorem C11_vk_is_constant_private :
  forall (VK PROOF : Type) (Verify : VK -> list Z -> PROOF -> bool) (H : list Z -> list Z)
         (vk : VK) (leaf_pis n : Z) (c : private_batch_circuit VK) children pre out,
    private_batch_new VK vk leaf_pis n = Ok c ->
    private_batch_sat VK PROOF Verify H c children pre out ->
    pb_vk c = vk /\ zlen children = n /\
    forall ch, In ch children -> Verify vk (ch_pis ch) (ch_proof ch) = true.
Proof.
  intros VK PROOF Verify H vk npis n c children pre out Hnew (Hl & Hrec & _).
  apply private_batch_new_ok_iff in Hnew. destruct Hnew as (_ & _ & ->).
  split; [reflexivity|]. split; [exact Hl|]. apply Forall_forall, Hrec.
Qed.

Theorem C11_vk_is_constant_public :
  forall (VK PROOF : Type) (Verify : VK -> list Z -> PROOF -> bool) (H : list Z -> list Z)
         (vk : VK) (pb_pis m n : Z) (c : public_batch_circuit VK) addr children out,
    public_batch_new VK vk pb_pis m n = Ok c ->
    public_batch_sat VK PROOF Verify H c addr children out ->
    pub_vk c = vk /\ zlen children = m /\
    forall ch, In ch children -> Verify vk (ch_pis ch) (ch_proof ch) = true.
Proof.
  intros VK PROOF Verify H vk npis m n c addr children out Hnew (Hl & Hrec & _).
  apply public_batch_new_ok_iff in Hnew. destruct Hnew as (_ & _ & _ & ->).
  split; [reflexivity|]. split; [exact Hl|]. apply Forall_forall, Hrec.
Qed.

Theorem C11_ctor_private_iff :
  forall (VK : Type) (vk : VK) (leaf_pis n : Z) (c : private_batch_circuit VK), 0 <= n ->
    (private_batch_new VK vk leaf_pis n = Ok c <-> 1 <= n <= 64 /\ leaf_pis = 21 /\ c = mkPB vk n).
Proof. intros VK vk k n c Hn. rewrite private_batch_new_ok_iff, (count_ok_iff n Hn). reflexivity. Qed.

Theorem C11_ctor_public_iff :
  forall (VK : Type) (vk : VK) (pb_pis m n : Z) (c : public_batch_circuit VK), 0 <= m -> 0 <= n ->
    (public_batch_new VK vk pb_pis m n = Ok c <->
     1 <= m <= 64 /\ 1 <= n <= 64 /\ pb_pis = 21 * n + 8 /\ c = mkPUB vk m n).
Proof.
  intros VK vk k m n c Hm Hn. rewrite public_batch_new_ok_iff, (count_ok_iff m Hm), (count_ok_iff n Hn).
  split; intros (Rm & Rn & E & Ec); (split; [exact Rm|]; split; [exact Rn|]; split; [|exact Ec]);
    [rewrite <- (pr_pi_len_exact n Rn)|rewrite (pr_pi_len_exact n Rn)]; exact E.
Qed.

(* a wrong public-input count is an [Err], never a panic (-1), whatever the other arguments *)
Theorem C11_ctor_rejects_wrong_pi_len :
  forall (VK : Type) (vk : VK),
    (forall leaf_pis n, leaf_pis <> 21 -> exists e, private_batch_new VK vk leaf_pis n = Err e /\ e <> -1) /\
    (forall pb_pis m n, pb_pis <> Parsers.pr_pi_len n -> exists e, public_batch_new VK vk pb_pis m n = Err e /\ e <> -1).
Proof.
  intros VK vk. split.
  - intros. apply private_batch_new_rejects_wrong_pi_len. assumption.
  - intros. apply public_batch_new_rejects_wrong_pi_len. assumption.
Qed.

(* foreign child proofs (cryptographic premises explicit) *)
Theorem C11_foreign_proof_unsatisfiable_private :
  forall (VK PROOF : Type) (Verify : VK -> list Z -> PROOF -> bool) (H : list Z -> list Z)
         (produced_by : VK -> PROOF -> Prop),
    (* knowledge soundness of the proof system, relative to the circuit identified by the key *)
    (forall vk pis pf, Verify vk pis pf = true -> produced_by vk pf) ->
    (* a proof is a proof of one circuit: different circuits have different keys *)
    (forall vk vk' pf, produced_by vk pf -> produced_by vk' pf -> vk = vk') ->
    forall (vk_leaf : VK) (leaf_pis n : Z) (c : private_batch_circuit VK) children pre out ch (vk' : VK),
      private_batch_new VK vk_leaf leaf_pis n = Ok c ->
      In ch children -> produced_by vk' (ch_proof ch) -> vk' <> vk_leaf ->
      ~ private_batch_sat VK PROOF Verify H c children pre out.
Proof.
  intros VK PROOF Verify H produced_by KS One vk k n c children pre out ch vk' New Hin Hp Hne (_ & Hrec & _).
  apply private_batch_new_ok_iff in New. destruct New as (_ & _ & ->).
  exact (foreign_child_rejected VK PROOF Verify produced_by KS One vk children ch vk' Hrec Hin Hp Hne).
Qed.

Theorem C11_foreign_proof_unsatisfiable_public :
  forall (VK PROOF : Type) (Verify : VK -> list Z -> PROOF -> bool) (H : list Z -> list Z)
         (produced_by : VK -> PROOF -> Prop),
    (forall vk pis pf, Verify vk pis pf = true -> produced_by vk pf) ->
    (forall vk vk' pf, produced_by vk pf -> produced_by vk' pf -> vk = vk') ->
    forall (vk_pb : VK) (pb_pis m n : Z) (c : public_batch_circuit VK) addr children out ch (vk' : VK),
      public_batch_new VK vk_pb pb_pis m n = Ok c ->
      In ch children -> produced_by vk' (ch_proof ch) -> vk' <> vk_pb ->
      ~ public_batch_sat VK PROOF Verify H c addr children out.
Proof.
  intros VK PROOF Verify H produced_by KS One vk k m n c addr children out ch vk' New Hin Hp Hne (_ & Hrec & _).
  apply public_batch_new_ok_iff in New. destruct New as (_ & _ & _ & ->).
  exact (foreign_child_rejected VK PROOF Verify produced_by KS One vk children ch vk' Hrec Hin Hp Hne).
Qed.

(* the premises are satisfiable: the ideal proof system used by the correspondence run meets them *)
Example C11_ex_premises_satisfiable :
  (forall vk pis pf, iverify vk pis pf = true -> iproduced_by vk pf) /\
  (forall vk vk' pf, iproduced_by vk pf -> iproduced_by vk' pf -> vk = vk').
Proof. split; [exact ideal_sound|exact ideal_one_circuit]. Qed.
(* ... and in it an own valid proof is accepted, a valid proof of another circuit is not *)
Example C11_ex_own_accepted :
  rec_accepts [11; 12] [mkChild [] ([11; 12], true)] true = true.
Proof. reflexivity. Qed.
Example C11_ex_foreign_rejected :
  rec_accepts [11; 12] [mkChild [] ([11; 12], true); mkChild [] ([11; 13], true)] true = false.
Proof. reflexivity. Qed.
Example C11_ex_ctor_ok : private_batch_new ikey [1] 21 8 = Ok (mkPB [1] 8). Proof. reflexivity. Qed.
Example C11_ex_ctor_wrong_len : private_batch_new ikey [1] 22 8 = Err E_PI_LEN. Proof. reflexivity. Qed.
Example C11_ex_pub_ctor_ok : public_batch_new ikey [1] (21 * 8 + 8) 4 8 = Ok (mkPUB [1] 4 8). Proof. reflexivity. Qed.
Example C11_ex_pub_ctor_wrong_len : public_batch_new ikey [1] (21 * 8 + 8) 4 7 = Err E_PI_LEN. Proof. reflexivity. Qed.
