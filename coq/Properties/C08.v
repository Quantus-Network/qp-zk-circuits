(* C08 - Value conservation in the private-batch wrapper circuit.

   The 2N output exit amounts of the private batch sum to exactly the output amounts of the REAL child
   statements: nothing is created or lost by the grouping, a dummy child contributes nothing whatever
   its amount / exit fields hold, and every output slot with a non-zero account carries exactly the
   total sent to that account by real children.  The sums are sums of integers (no field wrap-around:
   every amount is below 2^32, the total below 2^39).

   Model: Circ/PrivateBatch.v (build_private_batch_constraints, circuit_logic.rs:171); specification:
   Spec/LeanPort.v (groupExits, slotsTotal, inputExitTotal = Lean's Aggregation.lean); proofs:
   Circ/PrivateBatchProofs.v. *)
From V.Base Require Import Common.
From V.Generated Require Import Constants.
From V.Circ Require Import Field Core Prims Gadgets PrivateBatch PrivateBatchProofs.
From V.Spec Require Import LeanPort LeanPortFacts.

Local Open Scope Z_scope.

Lemma C08_pin_leaf_pi_len : PR_LEAF_PI_LEN = 21. Proof. reflexivity. Qed.
Lemma C08_pin_amount_offsets : PR_OUTPUT_AMOUNT_1_START = 1 /\ PR_OUTPUT_AMOUNT_2_START = 2 /\
  PR_EXIT_1_START = 8 /\ PR_EXIT_2_START = 12 /\ PR_BLOCK_HASH_START = 16.
Proof. repeat split; reflexivity. Qed.
Lemma C08_pin_out_layout : PR_OUT_HEADER_LEN = 8 /\ PR_OUT_EXIT_SLOT_LEN = 5. Proof. split; reflexivity. Qed.
Lemma C08_pin_max : MAX_PROOF_COUNT = 64. Proof. reflexivity. Qed.

Lemma C08_spec_slotsTotal a k r : slotsTotal ((a, k) :: r) = a + slotsTotal r. Proof. reflexivity. Qed.
Lemma C08_spec_inputExitTotal q r :
  inputExitTotal (q :: r) = (if is_dummy_pb q then 0 else lf_out1 q + lf_out2 q) + inputExitTotal r.
Proof. reflexivity. Qed.
Lemma C08_spec_accountTotal k q r :
  accountTotal k (q :: r) =
  (if is_dummy_pb q then 0
   else (if list_eqb (lf_exit1 q) k then lf_out1 q else 0) + (if list_eqb (lf_exit2 q) k then lf_out2 q else 0))
  + accountTotal k r.
Proof. reflexivity. Qed.
(* the 2N (amount, account) slots read back from the public output felts 8 .. 8 + 10 N *)
Lemma C08_spec_out_exit_slots n out : out_exit_slots n out = read_slots (2 * n) (skipn 8 out).
Proof. reflexivity. Qed.
Lemma C08_spec_read_slots n region :
  read_slots (S n) region = (nth 0 region 0, firstn 4 (skipn 1 region)) :: read_slots n (skipn 5 region).
Proof. reflexivity. Qed.

(* pure form, every batch (Lean's groupAux_conserves, proved for the port in Circ/PrivateBatchProofs.v) *)
Theorem C08_conservation : forall leaves,
  slotsTotal (groupExits (maskedChildPairs leaves)) = inputExitTotal leaves.
Proof. exact conservation. Qed.

(* circuit form: for every satisfying (adversarial) witness, the amounts in the registered output *)
Theorem C08_circuit_conservation : forall H,
  (forall l, length (H l) = 4%nat /\ Forall canon (H l)) ->
  forall leaves us, (1 <= length leaves <= 64)%nat -> Forall leaf_wf leaves -> length us = length leaves ->
  forall out, rel H (private_batch leaves us) (fun o => o = out) ->
  slotsTotal (out_exit_slots (length leaves) out) = inputExitTotal leaves /\
  0 <= inputExitTotal leaves < 2 ^ 39.
Proof.
  intros H Hwf leaves us Hn W Lu out R. rewrite (private_batch_exit_slots H Hwf leaves us out Hn W Lu R).
  split; [apply conservation|]. pose proof (inputExitTotal_bound leaves (leaf_wf_fields_all _ W)) as B.
  change (2 ^ 39) with 549755813888. unfold zlen, two32 in B. lia.
Qed.

Theorem C08_dummy_contributes_nothing : forall l1 d l2, is_dummy_pb d = true ->
  slotsTotal (groupExits (maskedChildPairs (l1 ++ d :: l2))) = inputExitTotal (l1 ++ l2) /\
  forall k, matchSum k (maskedChildPairs (l1 ++ d :: l2)) = matchSum k (maskedChildPairs (l1 ++ l2)).
Proof.
  intros l1 d l2 D. split.
  - rewrite conservation, !inputExitTotal_app. cbn [inputExitTotal]. rewrite D. reflexivity.
  - intros k. rewrite !maskedChildPairs_app, !matchSum_app. cbn [maskedChildPairs matchSum]. rewrite D.
    destruct (list_eqb zero4 k); reflexivity.
Qed.

Theorem C08_slot_is_account_total : forall leaves s k,
  In (s, k) (groupExits (maskedChildPairs leaves)) -> k <> zero4 -> s = accountTotal k leaves.
Proof.
  intros leaves s k I N. apply groupExits_entry in I. destruct I as [E|[_ ->]]; [|apply matchSum_masked].
  inversion E; subst. contradiction.
Qed.
Theorem C08_circuit_slot_is_account_total : forall H,
  (forall l, length (H l) = 4%nat /\ Forall canon (H l)) ->
  forall leaves us, (1 <= length leaves <= 64)%nat -> Forall leaf_wf leaves -> length us = length leaves ->
  forall out s k, rel H (private_batch leaves us) (fun o => o = out) ->
  In (s, k) (out_exit_slots (length leaves) out) -> k <> zero4 -> s = accountTotal k leaves.
Proof.
  intros H Hwf leaves us Hn W Lu out s k R. rewrite (private_batch_exit_slots H Hwf leaves us out Hn W Lu R).
  apply C08_slot_is_account_total.
Qed.

Example C08_ex_hypotheses :
  (forall l, length (H0 l) = 4%nat /\ Forall canon (H0 l)) /\ Forall leaf_wf ex_leaves /\
  length ex_us = length ex_leaves /\ priv_compat ex_leaves = true /\
  hon H0 (private_batch ex_leaves ex_us) = Some (priv_output H0 ex_leaves ex_us).
Proof. exact (conj H0_wf (conj ex_leaves_wf (conj eq_refl (conj ex_compat ex_hon)))). Qed.
(* real slots pay 10 + 20 and 30 + 40; the dummy's junk amounts 99 + 98 do not count *)
Example C08_ex_totals :
  inputExitTotal ex_leaves = 100 /\
  out_exit_slots 3 (priv_output H0 ex_leaves ex_us) =
    [(40, [21; 22; 23; 24]); (20, [31; 32; 33; 34]); (0, zero4); (0, zero4); (0, zero4); (40, [51; 52; 53; 54])] /\
  accountTotal [21; 22; 23; 24] ex_leaves = 40.
Proof. rewrite ex_out. vm_compute. repeat split; reflexivity. Qed.
