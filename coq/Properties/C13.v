(* C13 - Acceptance condition of the public-batch wrapper.

   "The public-batch constraints are satisfiable iff all inner statements with a non-zero block hash
   share one block hash, one asset id and one fee.  Inners with a zero block hash are exempt from every
   check.  Slot contents, nullifiers and block numbers are never cross-checked."

   Model: Circ/PublicBatch.v; specification: Spec/LeanPort.v ([pub_compat]); proofs:
   Circ/PublicBatchProofs.v.  n = leaves per private batch; [inner_wf n q]: q has 21 n + 8 canonical felts. *)
From V.Base Require Import Common.
From V.Generated Require Import Constants.
From V.Circ Require Import Core PublicBatch PublicBatchProofs.
From V.Spec Require Import LeanPort.

Lemma C13_pin_inner_offsets :
  [PR_OUT_ASSET_ID_OFFSET; PR_OUT_VOLUME_FEE_BPS_OFFSET; PR_OUT_BLOCK_HASH_OFFSET; PR_OUT_BLOCK_NUMBER_OFFSET;
   PR_OUT_HEADER_LEN; PR_OUT_EXIT_SLOT_LEN; PR_LEAF_PI_LEN] = [1; 2; 3; 7; 8; 5; 21].
Proof. reflexivity. Qed.

Lemma C13_spec_fields : forall q,
  in_asset q = nth 1 q 0 /\ in_fee q = nth 2 q 0 /\ in_bh q = firstn 4 (skipn 3 q) /\ in_bn q = nth 7 q 0.
Proof. repeat split; reflexivity. Qed.
Lemma C13_spec_real_dummy : forall q,
  is_dummy_inner q = list_eqb (in_bh q) [0; 0; 0; 0] /\ is_real_inner q = negb (is_dummy_inner q).
Proof. split; reflexivity. Qed.

Theorem C13_accept_iff :
  forall (H : list Z -> list Z) (n : Z), 1 <= n ->
  forall (address : list Z) (inners : list (list Z)), Forall (inner_wf n) inners ->
    ((exists out, rel H (public_batch n address inners) (fun o => o = out)) <-> pub_compat inners = true).
Proof. intros H n Hn address inners F. exact (gdet_sat_iff H _ _ _ (gdet_public_batch H n Hn address inners F)). Qed.

(* compatible = all real inners agree pairwise on block hash, asset and fee *)
Theorem C13_compat_spelled_out :
  forall inners,
    pub_compat inners = true <->
    forall a b, In a inners -> In b inners -> is_real_inner a = true -> is_real_inner b = true ->
                in_bh a = in_bh b /\ in_asset a = in_asset b /\ in_fee a = in_fee b.
Proof. exact pub_compat_iff. Qed.

(* a dummy inner may be replaced by any other dummy: nothing but its zero block hash is looked at *)
Theorem C13_dummy_exempt :
  forall l1 d d' l2, is_dummy_inner d = true -> is_dummy_inner d' = true ->
    pub_compat (l1 ++ d :: l2) = pub_compat (l1 ++ d' :: l2).
Proof. exact pub_compat_dummy_exempt. Qed.

Theorem C13_dummy_exempt_circuit :
  forall (H : list Z -> list Z) (n : Z), 1 <= n ->
  forall address l1 d d' l2,
    Forall (inner_wf n) (l1 ++ d :: l2) -> inner_wf n d' ->
    is_dummy_inner d = true -> is_dummy_inner d' = true ->
    ((exists out, rel H (public_batch n address (l1 ++ d :: l2)) (fun o => o = out)) <->
     (exists out, rel H (public_batch n address (l1 ++ d' :: l2)) (fun o => o = out))).
Proof.
  intros H n Hn address l1 d d' l2 F W' D D'.
  assert (F' : Forall (inner_wf n) (l1 ++ d' :: l2)) by (rewrite Forall_app, Forall_cons_iff in *; tauto).
  rewrite !C13_accept_iff by assumption. rewrite (C13_dummy_exempt l1 d d' l2 D D'). tauto.
Qed.

(* acceptance depends only on the (asset, fee, block hash) triples: the count felt, block numbers,
   slots, nullifiers and padding of the inners never matter *)
Theorem C13_no_cross_checks :
  forall inners inners',
    map (fun q => (in_asset q, in_fee q, in_bh q)) inners = map (fun q => (in_asset q, in_fee q, in_bh q)) inners' ->
    pub_compat inners = pub_compat inners'.
Proof. exact pub_compat_only_keys. Qed.

Theorem C13_no_cross_checks_circuit :
  forall (H : list Z -> list Z) (n : Z), 1 <= n ->
  forall address address' inners inners',
    Forall (inner_wf n) inners -> Forall (inner_wf n) inners' ->
    map (fun q => (in_asset q, in_fee q, in_bh q)) inners = map (fun q => (in_asset q, in_fee q, in_bh q)) inners' ->
    ((exists out, rel H (public_batch n address inners) (fun o => o = out)) <->
     (exists out, rel H (public_batch n address' inners') (fun o => o = out))).
Proof.
  intros H n Hn address address' inners inners' F F' E. rewrite !C13_accept_iff by assumption.
  rewrite (C13_no_cross_checks inners inners' E). tauto.
Qed.

(* non-vacuity: N = 2 *)
Example C13_ex_H (l : list Z) : list Z := [1 + (fold_left Z.add l 0) mod 1000; 2; 3; 4].
Example C13_ex_inner (count asset fee : Z) (bh : list Z) (bn base : Z) : list Z :=
  [count; asset; fee] ++ bh ++ [bn] ++ map (fun k => base + Z.of_nat k) (seq 0 28) ++ repeat 0 14.
Example C13_ex_address : list Z := [101; 102; 103; 104].
(* accepted: a dummy with foreign asset/fee, two real inners differing in count felt, block number, slots, nullifiers *)
Example C13_ex_good : list (list Z) :=
  [C13_ex_inner 4 9 9 [0; 0; 0; 0] 5 5000; C13_ex_inner 4 7 25 [11; 12; 13; 14] 77 1000;
   C13_ex_inner 99 7 25 [11; 12; 13; 14] 78 1000].
Example C13_ex_good_accepted :
  Forall (inner_wf 2) C13_ex_good /\ pub_compat C13_ex_good = true /\
  exists out, rel C13_ex_H (public_batch 2 C13_ex_address C13_ex_good) (fun o => o = out).
Proof.
  assert (F : Forall (inner_wf 2) C13_ex_good) by (apply inners_wfb_spec; vm_compute; reflexivity).
  assert (C : pub_compat C13_ex_good = true) by reflexivity.
  split; [exact F|]. split; [exact C|].
  apply (C13_accept_iff C13_ex_H 2 ltac:(lia) C13_ex_address C13_ex_good F), C.
Qed.
(* rejected: fee, asset or one block-hash limb differs between two real inners *)
Example C13_ex_bad_fee : list (list Z) :=
  [C13_ex_inner 4 7 25 [11; 12; 13; 14] 77 1000; C13_ex_inner 4 7 26 [11; 12; 13; 14] 77 1000].
Example C13_ex_bad_asset : list (list Z) :=
  [C13_ex_inner 4 7 25 [11; 12; 13; 14] 77 1000; C13_ex_inner 4 8 25 [11; 12; 13; 14] 77 1000].
Example C13_ex_bad_block : list (list Z) :=
  [C13_ex_inner 4 7 25 [11; 12; 13; 14] 77 1000; C13_ex_inner 4 7 25 [11; 12; 13; 15] 77 1000].
Example C13_ex_bad_rejected :
  forall bad, In bad [C13_ex_bad_fee; C13_ex_bad_asset; C13_ex_bad_block] ->
    Forall (inner_wf 2) bad /\ pub_compat bad = false /\
    hon C13_ex_H (public_batch 2 C13_ex_address bad) = None /\
    ~ exists out, rel C13_ex_H (public_batch 2 C13_ex_address bad) (fun o => o = out).
Proof.
  intros bad I.
  assert (F : Forall (inner_wf 2) bad /\ pub_compat bad = false /\ hon C13_ex_H (public_batch 2 C13_ex_address bad) = None).
  { cbn [In] in I. destruct I as [<-|[<-|[<-|[]]]];
      (split; [apply inners_wfb_spec; vm_compute; reflexivity|split; vm_compute; reflexivity]). }
  destruct F as (F & C & Hh). split; [exact F|]. split; [exact C|]. split; [exact Hh|].
  rewrite (C13_accept_iff C13_ex_H 2 ltac:(lia) C13_ex_address bad F), C. discriminate.
Qed.
(* a real inner placed after dummies still fixes the references; a second one must match it *)
Example C13_ex_exempt_instance :
  pub_compat (C13_ex_inner 4 1 2 [0; 0; 0; 0] 3 0 :: C13_ex_bad_fee) = false /\
  pub_compat [C13_ex_inner 4 1 2 [0; 0; 0; 0] 3 0; C13_ex_inner 4 7 25 [11; 12; 13; 14] 77 1000;
              C13_ex_inner 4 3 4 [0; 0; 0; 0] 3 0] = true.
Proof. split; reflexivity. Qed.
