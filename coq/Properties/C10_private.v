(* C10 (private batch) - No witness freedom in the private-batch wrapper circuit.

   For well-formed child statements the constraint system of build_private_batch_constraints
   (wormhole/aggregator/src/private_batch/circuit/circuit_logic.rs:171) determines its public output:
   whatever the (adversarial) witness - the hint wires of is_equal, range checks, the 32-bit splits and
   comparators of the sorting network - the reachable outputs are exactly the honest one; two satisfying
   witnesses register the same public inputs; if the honest witness generation fails, no witness exists.

   Model: Circ/PrivateBatch.v; semantics Circ/Core.v ([refines H c]: rel H c post <-> post (honest output));
   proofs: Circ/PrivateBatchProofs.v. *)
From V.Base Require Import Common.
From V.Generated Require Import Constants.
From V.Circ Require Import Field Core Prims Gadgets PrivateBatch PrivateBatchProofs.
From V.Spec Require Import LeanPort LeanPortFacts.

Local Open Scope Z_scope.

Lemma C10_private_pin_leaf_pi_len : PR_LEAF_PI_LEN = 21. Proof. reflexivity. Qed.
Lemma C10_private_pin_max : MAX_PROOF_COUNT = 64. Proof. reflexivity. Qed.

Lemma C10_private_spec_refines H (c : Circ (list Z)) :
  refines H c <-> (forall post, rel H c post <-> match hon H c with Some a => post a | None => False end).
Proof. reflexivity. Qed.

Theorem C10_private_batch_deterministic : forall H,
  (forall l, length (H l) = 4%nat /\ Forall canon (H l)) ->
  forall leaves us, (1 <= length leaves <= 64)%nat -> Forall leaf_wf leaves -> length us = length leaves ->
  refines H (private_batch leaves us).
Proof. exact refines_private_batch. Qed.

Theorem C10_private_unique_output : forall H,
  (forall l, length (H l) = 4%nat /\ Forall canon (H l)) ->
  forall leaves us, (1 <= length leaves <= 64)%nat -> Forall leaf_wf leaves -> length us = length leaves ->
  forall a b, rel H (private_batch leaves us) (fun o => o = a) ->
              rel H (private_batch leaves us) (fun o => o = b) -> a = b.
Proof. intros H Hwf leaves us Hn W Lu. apply refines_unique, refines_private_batch; assumption. Qed.

Theorem C10_private_honest_fails_all_fail : forall H,
  (forall l, length (H l) = 4%nat /\ Forall canon (H l)) ->
  forall leaves us, (1 <= length leaves <= 64)%nat -> Forall leaf_wf leaves -> length us = length leaves ->
  hon H (private_batch leaves us) = None -> forall post, ~ rel H (private_batch leaves us) post.
Proof. intros H Hwf leaves us Hn W Lu. apply refines_honest_fails, refines_private_batch; assumption. Qed.

Example C10_private_ex_hypotheses :
  (forall l, length (H0 l) = 4%nat /\ Forall canon (H0 l)) /\ Forall leaf_wf ex_leaves /\
  length ex_us = length ex_leaves /\ priv_compat ex_leaves = true.
Proof. exact (conj H0_wf (conj ex_leaves_wf (conj eq_refl ex_compat))). Qed.
Example C10_private_ex_honest :
  hon H0 (private_batch ex_leaves ex_us) = Some (priv_output H0 ex_leaves ex_us).
Proof. exact ex_hon. Qed.
(* ... and a batch on which the honest witness generation fails (the same child twice) *)
Example C10_private_ex_fails :
  hon H0 (private_batch [ex_real1; ex_real1] [[1; 1; 1; 1]; [2; 2; 2; 2]]) = None.
Proof. exact ex_dup_fails. Qed.
