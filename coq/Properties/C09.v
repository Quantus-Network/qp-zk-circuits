(* C09 - Slot-order independence of the private-batch public output.

   Let two batches hold the same (child statement, dummy preimage) pairs in different slot orders, the
   first one accepted.  Then the second is accepted too and the public outputs agree on
     - the header felts 0..6 (slot count, asset, fee, block hash); also on the block number (felt 7)
       PROVIDED real children with equal block hashes have equal block numbers - the wrapper itself does
       not enforce that (it is the leaf circuit's binding), and without it the block number shown is the
       first real slot's, i.e. order dependent (C09_perm_block_number_refuted),
     - the whole nullifier region, felt for felt (it is sorted),
     - the multiset of non-zero exit slots (within one output they stand at the first slot of their account).
   Every slot that repeats an earlier account is the all-zero slot; so is every slot of a dummy child
   PROVIDED no real child pays a non-zero amount to the all-zero account (otherwise the first slot of
   the all-zero account, possibly a dummy's, shows that total: C09_dummy_slot_zero_refuted).
   Fields of dummy slots other than the block hash and the asset id never influence the output.

   Model: Circ/PrivateBatch.v (circuit_logic.rs:171); specification Spec/LeanPort.v; proofs
   Circ/PrivateBatchProofs.v.  By C06 [priv_output H leaves us] is the output of every satisfying witness. *)
From Coq Require Import Permutation.
From V.Base Require Import Common.
From V.Generated Require Import Constants.
From V.Circ Require Import Field Core Prims Gadgets SortNet Sorting PrivateBatch PrivateBatchProofs.
From V.Spec Require Import LeanPort LeanPortFacts.

Local Open Scope Z_scope.

Lemma C09_pin_leaf_pi_len : PR_LEAF_PI_LEN = 21. Proof. reflexivity. Qed.
Lemma C09_pin_out_layout : PR_OUT_HEADER_LEN = 8 /\ PR_OUT_EXIT_SLOT_LEN = 5 /\ PR_OUT_BLOCK_NUMBER_OFFSET = 7.
Proof. repeat split; reflexivity. Qed.
Lemma C09_pin_max : MAX_PROOF_COUNT = 64. Proof. reflexivity. Qed.

Lemma C09_spec_bn_determined leaves :
  bn_determined leaves <->
  (forall q q', In q leaves -> In q' leaves -> is_real_pb q = true -> is_real_pb q' = true ->
                lf_bh q = lf_bh q' -> lf_bn q = lf_bn q').
Proof. reflexivity. Qed.
Lemma C09_spec_nonzero_slot s k : nonzero_slot (s, k) = negb ((s =? 0) && list_eqb k [0; 0; 0; 0]).
Proof. reflexivity. Qed.
Lemma C09_spec_no_payment_to_zero_account leaves :
  no_payment_to_zero_account leaves <->
  (forall q, In q leaves -> is_real_pb q = true ->
     (lf_exit1 q = zero4 -> lf_out1 q = 0) /\ (lf_exit2 q = zero4 -> lf_out2 q = 0)).
Proof. reflexivity. Qed.
Lemma C09_spec_same_up_to_dummy_fields q q' :
  same_up_to_dummy_fields q q' <->
  (q = q' \/ (is_dummy_pb q = true /\ is_dummy_pb q' = true /\ lf_asset q = lf_asset q')).
Proof. reflexivity. Qed.
Lemma C09_spec_out_exit_slots n out : out_exit_slots n out = read_slots (2 * n) (skipn 8 out).
Proof. reflexivity. Qed.
Lemma C09_spec_key_at xs k : key_at xs k = fst (nth k xs ([], 0)). Proof. reflexivity. Qed.

Theorem C09_perm_accepted : forall leaves us leaves' us' : list (list Z),
  length us = length leaves -> length us' = length leaves' ->
  Permutation (combine leaves us) (combine leaves' us') ->
  priv_compat leaves = true -> priv_compat leaves' = true.
Proof. intros leaves us leaves' us' Lu Lu' P. rewrite (priv_compat_perm _ _ (perm_combine_leaves _ _ _ _ Lu Lu' P)). exact id. Qed.

Theorem C09_perm_header : forall H (leaves us leaves' us' : list (list Z)),
  Forall leaf_wf leaves -> length us = length leaves -> length us' = length leaves' ->
  Permutation (combine leaves us) (combine leaves' us') -> priv_compat leaves = true ->
  bn_determined leaves ->
  firstn 8 (priv_output H leaves us) = firstn 8 (priv_output H leaves' us').
Proof.
  intros H leaves us leaves' us' W Lu Lu' P C.
  exact (proj2 (perm_output_header H leaves us leaves' us' W (perm_combine_leaves _ _ _ _ Lu Lu' P) C)).
Qed.
Theorem C09_perm_header_without_number : forall H (leaves us leaves' us' : list (list Z)),
  Forall leaf_wf leaves -> length us = length leaves -> length us' = length leaves' ->
  Permutation (combine leaves us) (combine leaves' us') -> priv_compat leaves = true ->
  firstn 7 (priv_output H leaves us) = firstn 7 (priv_output H leaves' us').
Proof.
  intros H leaves us leaves' us' W Lu Lu' P C.
  exact (proj1 (perm_output_header H leaves us leaves' us' W (perm_combine_leaves _ _ _ _ Lu Lu' P) C)).
Qed.
Theorem C09_perm_block_number_refuted :
  exists H leaves us leaves' us',
    (forall l, length (H l) = 4%nat /\ Forall canon (H l)) /\
    Forall leaf_wf leaves /\ length us = length leaves /\ length us' = length leaves' /\
    Permutation (combine leaves us) (combine leaves' us') /\ priv_compat leaves = true /\
    firstn 8 (priv_output H leaves us) <> firstn 8 (priv_output H leaves' us').
Proof.
  exists H0, [ex_real1; ex_real3], [[1; 1; 1; 1]; [2; 2; 2; 2]], [ex_real3; ex_real1], [[2; 2; 2; 2]; [1; 1; 1; 1]].
  split; [exact H0_wf|]. split; [apply leaves_wfb_ok; vm_compute; reflexivity|].
  split; [reflexivity|]. split; [reflexivity|]. split; [cbn [combine]; apply perm_swap|].
  split; [vm_compute; reflexivity|]. vm_compute. discriminate.
Qed.

Theorem C09_perm_nullifiers : forall H,
  (forall l, length (H l) = 4%nat /\ Forall canon (H l)) ->
  forall leaves us leaves' us' : list (list Z),
  Forall leaf_wf leaves -> length us = length leaves -> length us' = length leaves' ->
  Permutation (combine leaves us) (combine leaves' us') ->
  firstn (4 * length leaves) (skipn (8 + 10 * length leaves) (priv_output H leaves us)) =
  firstn (4 * length leaves') (skipn (8 + 10 * length leaves') (priv_output H leaves' us')).
Proof. intros H Hwf. apply perm_output_nullifiers, Hwf. Qed.

Theorem C09_perm_exits : forall H (leaves us leaves' us' : list (list Z)),
  Forall leaf_wf leaves -> length us = length leaves -> length us' = length leaves' ->
  Permutation (combine leaves us) (combine leaves' us') ->
  Permutation (filter nonzero_slot (out_exit_slots (length leaves) (priv_output H leaves us)))
              (filter nonzero_slot (out_exit_slots (length leaves') (priv_output H leaves' us'))).
Proof.
  intros H leaves us leaves' us' W Lu Lu' P.
  apply perm_output_exit_slots; [exact W|exact (perm_combine_leaves _ _ _ _ Lu Lu' P)].
Qed.
(* within one output the groups stand in slot order: at the first slot of their account (C06) *)
Theorem C09_exits_in_slot_order : forall H leaves us, Forall leaf_wf leaves ->
  out_exit_slots (length leaves) (priv_output H leaves us) = groupExits (maskedChildPairs leaves).
Proof. intros H leaves us W. apply priv_output_exit_slots, leaf_wf_fields_all, W. Qed.

Theorem C09_zero_slots_duplicate : forall H leaves us, Forall leaf_wf leaves ->
  forall k, (k < 2 * length leaves)%nat ->
  (exists j, (j < k)%nat /\ key_at (maskedChildPairs leaves) j = key_at (maskedChildPairs leaves) k) ->
  nth k (out_exit_slots (length leaves) (priv_output H leaves us)) (0, zero4) = (0, zero4).
Proof.
  intros H leaves us W k L. rewrite C09_exits_in_slot_order by exact W.
  apply groupExits_later. rewrite maskedChildPairs_length. exact L.
Qed.
Theorem C09_zero_slots_dummy : forall H leaves us, Forall leaf_wf leaves ->
  forall i j, (i < length leaves)%nat -> is_dummy_pb (nth i leaves []) = true ->
  no_payment_to_zero_account leaves -> (j = 2 * i \/ j = 2 * i + 1)%nat ->
  nth j (out_exit_slots (length leaves) (priv_output H leaves us)) (0, zero4) = (0, zero4).
Proof. intros H leaves us W i j. rewrite C09_exits_in_slot_order by exact W. apply dummy_slots_zero. Qed.
Theorem C09_dummy_slot_zero_refuted :
  exists leaves, Forall leaf_wf leaves /\ priv_compat leaves = true /\
    is_dummy_pb (nth 0 leaves []) = true /\
    nth 0 (groupExits (maskedChildPairs leaves)) (0, zero4) = (5, zero4).
Proof.
  exists [ex_dummy; ex_real4]. split; [apply leaves_wfb_ok; vm_compute; reflexivity|].
  split; [vm_compute; reflexivity|]. split; vm_compute; reflexivity.
Qed.

Theorem C09_dummy_noninterference : forall H l l' us,
  Forall2 same_up_to_dummy_fields l l' -> priv_output H l us = priv_output H l' us.
Proof. exact dummy_noninterference_output. Qed.

(* without the same-asset premise: true when both batches are accepted and there is a real slot ... *)
Theorem C09_dummy_noninterference_under_compat : forall H l l' us,
  Forall2 (fun q q' => q = q' \/ (is_dummy_pb q = true /\ is_dummy_pb q' = true)) l l' ->
  priv_compat l = true -> priv_compat l' = true -> (exists r, In r l /\ is_real_pb r = true) ->
  priv_output H l us = priv_output H l' us.
Proof. exact dummy_noninterference_under_compat. Qed.
(* ... but in an all-dummy batch the header shows the asset id of the dummy in slot 0 *)
Theorem C09_dummy_asset_shows_refuted :
  exists H l l' us, (forall x, length (H x) = 4%nat /\ Forall canon (H x)) /\
    Forall leaf_wf l /\ Forall leaf_wf l' /\ length us = length l /\
    Forall2 (fun q q' => q = q' \/ (is_dummy_pb q = true /\ is_dummy_pb q' = true)) l l' /\
    priv_compat l = true /\ priv_compat l' = true /\
    priv_output H l us <> priv_output H l' us.
Proof.
  exists H0, [ex_dummy], [ex_dummy_asset1], [[1; 1; 1; 1]].
  split; [exact H0_wf|]. split; [apply leaves_wfb_ok; vm_compute; reflexivity|].
  split; [apply leaves_wfb_ok; vm_compute; reflexivity|]. split; [reflexivity|].
  split; [constructor; [right; split; vm_compute; reflexivity|constructor]|].
  split; [vm_compute; reflexivity|]. split; [vm_compute; reflexivity|]. vm_compute. discriminate.
Qed.

Example C09_ex_hypotheses :
  (forall l, length (H0 l) = 4%nat /\ Forall canon (H0 l)) /\ Forall leaf_wf ex_leaves /\
  length ex_us = length ex_leaves /\ priv_compat ex_leaves = true /\ bn_determined ex_leaves /\
  no_payment_to_zero_account ex_leaves /\
  hon H0 (private_batch ex_leaves ex_us) = Some (priv_output H0 ex_leaves ex_us).
Proof. exact (conj H0_wf (conj ex_leaves_wf (conj eq_refl (conj ex_compat (conj ex_bn_determined (conj ex_no_zero_payment ex_hon)))))). Qed.
(* reversing the slots: same header, same nullifier region, the two non-zero groups move with their first slot *)
Example C09_ex_reversed :
  Permutation (combine ex_leaves ex_us) (combine (rev ex_leaves) (rev ex_us)) /\
  firstn 8 (priv_output H0 (rev ex_leaves) (rev ex_us)) = firstn 8 (priv_output H0 ex_leaves ex_us) /\
  skipn 38 (priv_output H0 (rev ex_leaves) (rev ex_us)) = skipn 38 (priv_output H0 ex_leaves ex_us) /\
  out_exit_slots 3 (priv_output H0 (rev ex_leaves) (rev ex_us)) =
    [(40, [21; 22; 23; 24]); (40, [51; 52; 53; 54]); (0, zero4); (0, zero4); (0, zero4); (20, [31; 32; 33; 34])].
Proof.
  split; [change (combine (rev ex_leaves) (rev ex_us)) with (rev (combine ex_leaves ex_us)); apply Permutation_rev|].
  rewrite ex_out. remember (priv_output H0 (rev ex_leaves) (rev ex_us)) as o eqn:E. vm_compute in E. subst o.
  repeat split; reflexivity.
Qed.
