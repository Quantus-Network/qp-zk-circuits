(* C20 - Pool state invariants hold after any history.
   Model: Sys/Pool.v; invariant [Inv] and proofs: Sys/PoolProofs.v. *)
From V.Base Require Import Common.
From V.Sys Require Import Pool PoolProofs.

(* what the invariant says (the record [Inv], unfolded into the sentences of the property) *)
Theorem C20_inv_means : forall cfg st,
  Inv cfg st ->
  (* the index contains exactly the nullifiers of the pooled proofs, each mapped to its proof's bucket *)
  (forall n k, idx_lookup n (s_index st) = Some k <->
               exists e, In (k, e) (keyed_entries (s_buckets st)) /\ In n (e_nulls e))
  /\ NoDup (map fst (s_index st))
  (* no two pooled proofs share a nullifier *)
  /\ (forall n, (null_count n (s_buckets st) <= 1)%nat)
  /\ (forall ke1 ke2 n, In ke1 (keyed_entries (s_buckets st)) -> In ke2 (keyed_entries (s_buckets st)) ->
                        ke1 <> ke2 -> In n (e_nulls (snd ke1)) -> ~ In n (e_nulls (snd ke2)))
  (* no bucket is empty; bucket keys are unique *)
  /\ (forall k b, In (k, b) (s_buckets st) -> b_proofs b <> [])
  /\ NoDup (map fst (s_buckets st))
  (* every proof sits in the bucket of its own key, with the metadata its public inputs parse to; it
     verified and is not the dummy sentinel *)
  /\ (forall k e, In (k, e) (keyed_entries (s_buckets st)) ->
        parse_metadata cfg (e_proof e) = Ok (k, e_nulls e, e_vol e)
        /\ p_ver (e_proof e) = true /\ is_dummy k = false /\ 0 <= e_vol e < two64)
  (* the proof and bucket counts are within the limits (and the attempt counter within the budget) *)
  /\ total_len (s_buckets st) <= c_max_proofs cfg
  /\ zlen (s_buckets st) <= c_max_buckets cfg
  /\ 0 <= s_verifs st <= c_budget cfg.
Proof.
  intros cfg st Hi.
  split; [exact (inv_index _ _ Hi)|]. split; [exact (inv_index_nodup _ _ Hi)|]. split; [exact (inv_unshared _ _ Hi)|].
  split; [intros ke1 ke2 n; exact (unshared_pairs n _ ke1 ke2 (inv_unshared _ _ Hi n))|].
  split; [intros k b; exact (inv_nonempty_in cfg st k b Hi)|]. split; [exact (inv_keys _ _ Hi)|].
  split; [intros k e; exact (inv_entry_in cfg st k e Hi)|].
  split; [exact (inv_len _ _ Hi)|]. split; [exact (inv_nbuckets _ _ Hi)|exact (inv_verifs _ _ Hi)].
Qed.

Theorem C20_inv_init : forall cfg t0, wf_cfg cfg -> Inv cfg (init t0).
Proof.
  intros cfg t0 W. destruct W. constructor; cbn; try (constructor; fail); try lia.
  intros n k. split; [discriminate|intros [e [[] _]]].
Qed.

Theorem C20_inv_step : forall cfg st o,
  wf_cfg cfg -> Inv cfg st -> wf_op o -> Inv cfg (fst (step cfg st o)).
Proof. intros cfg st o _. apply inv_step. Qed.

(* after ANY history (any operations, any clock advances, any settlement sets, any limits ProofPool::new accepts) *)
Theorem C20_inv_reachable : forall cfg t0 ops,
  wf_cfg cfg -> Forall wf_op ops ->
  Inv cfg (fold_left (fun s o => fst (step cfg s o)) ops (init t0)).
Proof. intros cfg t0 ops W Hw. rewrite <- run_fold. apply inv_run; [apply C20_inv_init; exact W|exact Hw]. Qed.

(* the reported statistics are functions of the pooled contents: one entry per bucket; count; batch size;
   volume = sum of the proofs' volumes saturated at u64::MAX; oldest age = the largest age among the
   bucket's proofs; last-snapshot age = time since the bucket's snapshot stamp *)
Theorem C20_stats_exact : forall cfg st,
  Inv cfg st ->
  map st_key (stats cfg st) = map fst (s_buckets st)
  /\ forall s, In s (stats cfg st) ->
       let l := bucket_entries (st_key s) (s_buckets st) in
       l <> []
       /\ st_num s = zlen l
       /\ st_batch s = c_batch cfg
       /\ st_volume s = Z.min (zsum (map e_vol l)) (two64 - 1)
       /\ (forall e, In e l -> sat_sub (s_now st) (e_at e) <= st_oldest s)
       /\ (exists e, In e l /\ st_oldest s = sat_sub (s_now st) (e_at e))
       /\ (exists b, find_bucket (st_key s) (s_buckets st) = Some b
                     /\ st_snap_age s = option_map (sat_sub (s_now st)) (b_snap b)).
Proof.
  intros cfg st Hi. split; [unfold stats; rewrite map_map; reflexivity|].
  intros s Hs. apply in_map_iff in Hs. destruct Hs as [[k b] [<- Hin]]. cbv zeta.
  unfold stat_of. cbn [st_key st_num st_batch st_volume st_oldest st_snap_age fst snd].
  pose proof (find_bucket_nodup k _ b (inv_keys _ _ Hi) Hin) as Hf.
  rewrite (bucket_entries_find k _ (inv_keys _ _ Hi)), Hf.
  pose proof (inv_nonempty_in cfg st k b Hi Hin) as Hne.
  split; [exact Hne|]. split; [reflexivity|]. split; [reflexivity|]. split.
  { rewrite sat_fold_min; [reflexivity|unfold two64; lia|]. apply Forall_map, Forall_forall. intros e He.
    apply (inv_entry_in cfg st k e Hi). apply keyed_in. eauto. }
  (* the oldest age is the maximum of the ages *)
  destruct (max_fold_spec (map (fun e => sat_sub (s_now st) (e_at e)) (b_proofs b))) as [Hin' Hge].
  { destruct (b_proofs b); [contradiction|discriminate]. }
  { apply Forall_map, Forall_forall. intros e _. apply sat_sub_nonneg. }
  split; [intros e He; exact (proj1 (Forall_forall _ _) Hge _ (in_map _ _ e He))|].
  split; [|exists b; split; reflexivity].
  apply in_map_iff in Hin'. destruct Hin' as [e [E He]]. exists e. auto.
Qed.

Theorem C20_snapshot_stamps : forall cfg st k b,
  find_bucket k (s_buckets st) = Some b ->
  exists b', find_bucket k (s_buckets (fst (step cfg st (Snapshot k)))) = Some b'
             /\ b_snap b' = Some (s_now st) /\ b_proofs b' = b_proofs b.
Proof.
  intros cfg st k b Hf. cbn [step]. unfold snapshot. rewrite Hf. cbn [fst set_buckets s_buckets].
  eexists. split; [apply find_mark_snapshot; exact Hf|]. split; reflexivity.
Qed.

(* non-vacuity: a reachable state with two buckets, three proofs, saturating volume *)
Definition ex_pis (bh0 null0 sum0 sum1 : Z) : list Z :=
  [2; 0; 10; bh0; 0; 0; 0; 77; sum0; 0; 0; 0; 0; sum1; 0; 0; 0; 0; null0; 0; 0; 0] ++ repeat 0 7.
Definition ex_cfg : config := mkConfig 3 2 2 8 1000 1 29.
Definition ex_history : list op :=
  [ Push (mkProof (ex_pis 1 11 (p - 1) (p - 1)) true); Advance 5;
    Push (mkProof (ex_pis 1 12 100 50) true); Push (mkProof (ex_pis 2 13 1 2) true);
    Snapshot [1; 0; 0; 0; 0; 10]; Advance 7 ].
Example C20_example_stats :
  stats ex_cfg (fst (run ex_cfg (init 0) ex_history))
  = [ mkStat [1; 0; 0; 0; 0; 10] 2 2 12 (two64 - 1) (Some 7); mkStat [2; 0; 0; 0; 0; 10] 1 2 7 3 None ].
Proof. vm_compute. reflexivity. Qed.
Example C20_example_ops_wf : Forall wf_op ex_history.
Proof. repeat constructor; unfold two64, p; cbn; easy. Qed.

(* admission order is age order: along every bucket the admission times never decrease and never
   exceed the clock, after any history; hence the reported oldest age is the age of the bucket's first proof *)
Theorem C20_admission_order_reachable : forall cfg t0 ops, TimeInv (fst (run cfg (init t0) ops)).
Proof. intros cfg t0 ops. apply time_run. constructor. Qed.

Theorem C20_stats_oldest_is_first : forall cfg st s,
  Inv cfg st -> TimeInv st -> In s (stats cfg st) ->
  exists e r, bucket_entries (st_key s) (s_buckets st) = e :: r /\ st_oldest s = s_now st - e_at e.
Proof.
  intros cfg st s Hi T Hs. destruct (C20_stats_exact cfg st Hi) as [_ H].
  destruct (H s Hs) as [Hne [_ [_ [_ [Hge [[e [He Hat]] _]]]]]].
  pose proof (bucket_entries_times cfg st (st_key s) Hi T) as Hsort.
  destruct (bucket_entries (st_key s) (s_buckets st)) as [|e0 r] eqn:E; [contradiction|].
  exists e0, r. split; [reflexivity|]. cbn [map nondecr_upto] in Hsort. destruct Hsort as [H1 [H2 _]].
  assert (Hle : sat_sub (s_now st) (e_at e) <= sat_sub (s_now st) (e_at e0)).
  { destruct He as [He|He]; [subst; lia|]. apply sat_sub_mono. rewrite Forall_forall in H2. apply H2. apply in_map. exact He. }
  pose proof (Hge e0 (or_introl eq_refl)) as Hge0.
  assert (Hold : st_oldest s = sat_sub (s_now st) (e_at e0)) by lia.
  unfold sat_sub in Hold. destruct (Z.ltb_spec (s_now st) (e_at e0)); lia.
Qed.
