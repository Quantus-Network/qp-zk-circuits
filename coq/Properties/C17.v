(* C17 - Artifact loaders accept only canonical circuits and bound their reads.

   "Leaf, private-batch and public-batch verifier artifacts are accepted only if they match a fresh rebuild of the
    canonical circuit for the configured shape: byte-identical for the leaf and private batch, semantically identical
    for the public batch.  Files or slices over the size cap are rejected before being read or hashed, and no prover
    ever reads a prover artifact."

   LEVEL: PARTIAL - the DECISION LOGIC of every loader is proved over the model Sys/Loaders.v; what the real loaders do
   to the file system is OBSERVED (strace of each loader, compared event by event with the model's log), and the
   external functions are parameters: keccak256 [keccak], the canonical serialisations of a fresh rebuild
   ([leaf_c leaf_v canon_pb canon_pub]; the harness recomputes them from /repo on every run), plonky2's
   deserialise-then-reserialise ([reser_c reser_v]) and decoded-config test ([cfg_ok]), the dummy-template validators,
   the config.json parser.  Proofs: Sys/LoadersProofs.v.

   Vocabulary: a loader returns [(log, result)]; [trace] / [result] project.  Log events: [EvStat id] metadata of file
   [id] requested, [EvRead id] file [id] opened and read, [EvHash k] input [k] keccak-hashed.  A [dir] maps file ids
   (F_COMMON = common.bin ... F_PUB_PROVER = public_batch_prover.bin, >= 12 anything else) to files; a file has the
   length its metadata claims ([f_len], a sparse file can claim anything) and the bytes a read returns ([f_bytes]). *)
From V.Base Require Import Common.
From V.Generated Require Import Constants.
From V.Sys Require Import Loaders LoadersProofs.

Lemma C17_pin_caps :
  MAX_ARTIFACT_FILE_BYTES = 64 * 1024 * 1024 /\ MAX_VERIFIER_ARTIFACT_BYTES = 1024 * 1024.
Proof. split; reflexivity. Qed.
Lemma C17_pin_max_proof_count : MAX_PROOF_COUNT = 64. Proof. reflexivity. Qed.

(* leaf verifier (verifier crate, keccak pins) *)
Theorem C17_verifier_accept_iff :
  forall (keccak : bytes -> bytes) (pin_v pin_c : bytes) (decode_ok : bytes -> bytes -> bool) (v c : bytes),
    result (verifier_new_from_bytes keccak pin_v pin_c decode_ok v c) = Ok tt <->
    zlen v <= 1048576 /\ zlen c <= 1048576 /\ keccak v = pin_v /\ keccak c = pin_c /\ decode_ok v c = true.
Proof. intros. apply verifier_bytes_iff. Qed.

(* accepted => within the cap and keccak-equal to the canonical rebuild; byte-identical to it under the explicit
   premise that keccak does not collide on these two pairs of strings *)
Theorem C17_accept_only_canonical_leaf_verifier :
  forall (keccak : bytes -> bytes) (decode_ok : bytes -> bytes -> bool) (can_v can_c v c : bytes),
    result (verifier_new_from_bytes keccak (keccak can_v) (keccak can_c) decode_ok v c) = Ok tt ->
    zlen v <= 1048576 /\ zlen c <= 1048576 /\
    keccak v = keccak can_v /\ keccak c = keccak can_c /\
    ((keccak v = keccak can_v -> v = can_v) -> (keccak c = keccak can_c -> c = can_c) -> v = can_v /\ c = can_c).
Proof.
  intros keccak decode_ok can_v can_c v c H. apply verifier_bytes_iff in H.
  destruct H as (H1 & H2 & H3 & H4 & _). repeat split; auto.
Qed.

(* a slice over the cap: the size error, and the log is EMPTY - nothing was hashed (nor read) *)
Theorem C17_oversize_slice_rejected_first :
  forall (keccak : bytes -> bytes) (pin_v pin_c : bytes) (decode_ok : bytes -> bytes -> bool) (v c : bytes),
    zlen v > 1048576 \/ zlen c > 1048576 ->
    verifier_new_from_bytes keccak pin_v pin_c decode_ok v c = ([], Err E_SIZE).
Proof. intros keccak pin_v pin_c decode_ok v c. apply verifier_bytes_oversize. Qed.

Theorem C17_verifier_files_accept_iff :
  forall (keccak : bytes -> bytes) (pin_v pin_c : bytes) (decode_ok : bytes -> bytes -> bool) (d : dir) (idv idc : Z),
    result (verifier_new_from_files keccak pin_v pin_c decode_ok d idv idc) = Ok tt <->
    exists fv fc, d idv = Some fv /\ d idc = Some fc /\ f_len fv <= 1048576 /\ f_len fc <= 1048576 /\
      result (verifier_new_from_bytes keccak pin_v pin_c decode_ok (f_bytes fv) (f_bytes fc)) = Ok tt.
Proof.
  intros. unfold verifier_new_from_files. etransitivity.
  { apply read_bind_iff; intro fv. apply read_bind_iff; intro fc. apply iff_refl. }
  split; intro H; unpack H; repack.
Qed.

(* an oversized file: looked at (stat) but never opened, and nothing is hashed - for the first and for the second file *)
Theorem C17_oversize_file_rejected_first :
  forall (keccak : bytes -> bytes) (pin_v pin_c : bytes) (decode_ok : bytes -> bytes -> bool) (d : dir) (idv idc : Z),
    (forall fv, d idv = Some fv -> f_len fv > 1048576 ->
       verifier_new_from_files keccak pin_v pin_c decode_ok d idv idc = ([EvStat idv], Err E_SIZE)) /\
    (forall fv fc, d idv = Some fv -> f_len fv <= 1048576 -> d idc = Some fc -> f_len fc > 1048576 ->
       verifier_new_from_files keccak pin_v pin_c decode_ok d idv idc = ([EvStat idv; EvRead idv; EvStat idc], Err E_SIZE)) /\
    (forall id f, d id = Some f -> f_len f > 1048576 ->
       Forall (fun e => e <> EvRead id) (trace (verifier_new_from_files keccak pin_v pin_c decode_ok d idv idc))).
Proof.
  intros. split; [apply verifier_files_oversize_first|].
  split; [apply verifier_files_oversize_second|apply verifier_files_never_read_oversize].
Qed.

(* leaf and private-batch artifacts (aggregator crate): raw bytes *)
Theorem C17_accept_iff_leaf_bytes :
  forall (leaf_c leaf_v common vo : bytes),
    load_canonical_leaf leaf_c leaf_v common vo = Ok tt <-> common = leaf_c /\ vo = leaf_v.
Proof. intros. exact (load_canonical_leaf_iff leaf_c leaf_v common vo tt). Qed.

Theorem C17_accept_iff_private_batch_bytes :
  forall (canon_pb : Z -> bytes * bytes) (common vo : bytes) (n : Z), 0 <= n ->
    (load_canonical_private_batch canon_pb common vo n = Ok tt <->
     1 <= n <= 64 /\ common = fst (canon_pb n) /\ vo = snd (canon_pb n)).
Proof. intros canon_pb common vo n Hn. exact (load_canonical_private_batch_iff canon_pb common vo n tt Hn). Qed.

(* public-batch artifacts: semantic identity *)
Theorem C17_accept_iff_public_batch :
  forall (canon_pub : Z -> Z -> bytes * bytes) (reser_c reser_v : bytes -> option bytes) (cfg_ok : bytes -> bool)
         (d : dir) (m n : Z), 0 <= m -> 0 <= n ->
    (result (load_public_batch canon_pub reser_c reser_v cfg_ok d m n) = Ok tt <->
     exists fc fv, d F_PUB_COMMON = Some fc /\ d F_PUB_VERIFIER = Some fv /\
       f_len fc <= 67108864 /\ f_len fv <= 67108864 /\ 1 <= m <= 64 /\ 1 <= n <= 64 /\
       cfg_ok (f_bytes fc) = true /\
       reser_c (f_bytes fc) = Some (fst (canon_pub m n)) /\ reser_v (f_bytes fv) = Some (snd (canon_pub m n))).
Proof.
  intros canon_pub reser_c reser_v cfg_ok d m n Hm Hn. unfold load_public_batch, CAP. etransitivity.
  { apply read_bind_iff; intro fc. apply read_bind_iff; intro fv.
    apply bind_iff; [intro; apply of_opt_ok|intros rc _]. apply bind_iff; [intro; apply of_opt_ok|intros rv _].
    apply bind_unit_iff; [apply count_ok_nonneg, Hm|]. apply bind_unit_iff; [apply count_ok_nonneg, Hn|].
    apply bind_unit_iff; [apply result_lguard|].
    apply bind_unit_iff; [apply result_lguard_eqb|]. apply bind_unit_iff; [apply result_lguard_eqb|reflexivity]. }
  split; intro H; unpack H; subst; repack.
Qed.

(* ... which is byte identity when the codec has unique encodings (re-serialising a decodable string gives it back) *)
Theorem C17_public_batch_semantic_implies_bytes_for_canonical_codec :
  forall (canon_pub : Z -> Z -> bytes * bytes) (reser_c reser_v : bytes -> option bytes) (cfg_ok : bytes -> bool)
         (d : dir) (m n : Z), 0 <= m -> 0 <= n ->
    (forall b b', reser_c b = Some b' -> b' = b) -> (forall b b', reser_v b = Some b' -> b' = b) ->
    result (load_public_batch canon_pub reser_c reser_v cfg_ok d m n) = Ok tt ->
    exists fc fv, d F_PUB_COMMON = Some fc /\ d F_PUB_VERIFIER = Some fv /\
      f_bytes fc = fst (canon_pub m n) /\ f_bytes fv = snd (canon_pub m n).
Proof.
  intros canon_pub reser_c reser_v cfg_ok d m n Hm Hn Uc Uv H.
  apply C17_accept_iff_public_batch in H; [|assumption|assumption].
  destruct H as (fc & fv & E1 & E2 & _ & _ & _ & _ & _ & R1 & R2).
  exists fc, fv. repeat split; auto; symmetry; [apply (Uc _ _ R1)|apply (Uv _ _ R2)].
Qed.

(* the directory loaders (provers, aggregator, builders) *)
Theorem C17_accept_iff_private_prover_dir :
  forall leaf_c leaf_v leaf_template_ok parse_config,
    (forall b c, parse_config b = Some c -> cfg_nonneg c) -> forall d,
    result (private_prover_from_dir leaf_c leaf_v leaf_template_ok parse_config d) = Ok tt <->
    exists fcfg cfg fc fv fd,
      d F_CONFIG = Some fcfg /\ f_len fcfg <= 67108864 /\ parse_config (f_bytes fcfg) = Some cfg /\
      1 <= fst cfg <= 64 /\ match snd cfg with Some m => 1 <= m <= 64 | None => True end /\
      d F_COMMON = Some fc /\ d F_VERIFIER = Some fv /\ d F_DUMMY = Some fd /\
      f_len fc <= 67108864 /\ f_len fv <= 67108864 /\ f_len fd <= 67108864 /\
      f_bytes fc = leaf_c /\ f_bytes fv = leaf_v /\ leaf_template_ok (f_bytes fd) = true.
Proof.
  intros leaf_c leaf_v leaf_template_ok parse_config WF d. unfold private_prover_from_dir, CAP. etransitivity.
  { apply bind_iff; [intro; apply load_config_ok, WF|intros cfg (_ & _ & _ & _ & C1 & _)].
    apply read_bind_iff; intro fc. apply read_bind_iff; intro fv. apply read_bind_iff; intro fd.
    apply bind_unit_iff; [apply count_ok_nonneg; lia|]. apply bind_unit_iff; [apply load_canonical_leaf_iff|].
    apply bind_unit_iff; [apply result_lguard|reflexivity]. }
  split; intro H; unpack H; repack.
Qed.

Theorem C17_accept_iff_public_prover_dir :
  forall canon_pb pb_template_ok parse_config,
    (forall b c, parse_config b = Some c -> cfg_nonneg c) -> forall d,
    result (public_prover_from_dir canon_pb pb_template_ok parse_config d) = Ok tt <->
    exists fcfg n m fc fv fd,
      d F_CONFIG = Some fcfg /\ f_len fcfg <= 67108864 /\ parse_config (f_bytes fcfg) = Some (n, Some m) /\
      1 <= n <= 64 /\ 1 <= m <= 64 /\
      d F_PB_COMMON = Some fc /\ d F_PB_VERIFIER = Some fv /\ d F_PB_DUMMY = Some fd /\
      f_len fc <= 67108864 /\ f_len fv <= 67108864 /\ f_len fd <= 67108864 /\
      f_bytes fc = fst (canon_pb n) /\ f_bytes fv = snd (canon_pb n) /\ pb_template_ok n (f_bytes fd) = true.
Proof.
  intros canon_pb pb_template_ok parse_config WF d. unfold public_prover_from_dir, CAP. etransitivity.
  { apply bind_iff; [intro; apply load_config_ok, WF|intros cfg (_ & _ & _ & _ & C1 & C2)].
    apply bind_iff; [intro; apply of_opt_ok|intros m Hm]. rewrite Hm in C2.
    apply read_bind_iff; intro fc. apply read_bind_iff; intro fv. apply read_bind_iff; intro fd.
    apply bind_unit_iff; [apply count_ok_nonneg; lia|]. apply bind_unit_iff; [apply count_ok_nonneg; lia|].
    apply bind_unit_iff; [apply load_canonical_private_batch_iff; lia|].
    apply bind_unit_iff; [apply result_lguard|reflexivity]. }
  split; [intros ([n om] & H)|intro H]; cbn [fst snd] in *; unpack H; subst; repack.
Qed.

Theorem C17_accept_iff_aggregator_dir :
  forall canon_pb canon_pub reser_c reser_v cfg_ok pb_template_ok parse_config,
    (forall b c, parse_config b = Some c -> cfg_nonneg c) -> forall d,
    result (aggregator_new canon_pb canon_pub reser_c reser_v cfg_ok pb_template_ok parse_config d) = Ok tt <->
    exists fcfg n m fc fv fd fpc fpv,
      d F_CONFIG = Some fcfg /\ f_len fcfg <= 67108864 /\ parse_config (f_bytes fcfg) = Some (n, Some m) /\
      1 <= n <= 64 /\ 1 <= m <= 64 /\
      d F_PB_COMMON = Some fc /\ d F_PB_VERIFIER = Some fv /\ d F_PB_DUMMY = Some fd /\
      d F_PUB_COMMON = Some fpc /\ d F_PUB_VERIFIER = Some fpv /\
      f_len fc <= 67108864 /\ f_len fv <= 67108864 /\ f_len fd <= 67108864 /\
      f_len fpc <= 67108864 /\ f_len fpv <= 67108864 /\
      f_bytes fc = fst (canon_pb n) /\ f_bytes fv = snd (canon_pb n) /\
      cfg_ok (f_bytes fpc) = true /\
      reser_c (f_bytes fpc) = Some (fst (canon_pub m n)) /\ reser_v (f_bytes fpv) = Some (snd (canon_pub m n)) /\
      pb_template_ok n (f_bytes fd) = true.
Proof.
  intros canon_pb canon_pub reser_c reser_v cfg_ok pb_template_ok parse_config WF d.
  unfold aggregator_new, CAP. etransitivity.
  { apply bind_iff; [intro; apply load_config_ok, WF|intros cfg (_ & _ & _ & _ & C1 & C2)].
    apply bind_iff; [intro; apply of_opt_ok|intros m Hm]. rewrite Hm in C2.
    apply read_bind_iff; intro fc. apply read_bind_iff; intro fv.
    apply bind_unit_iff; [apply load_canonical_private_batch_iff; lia|].
    apply bind_unit_iff; [apply C17_accept_iff_public_batch; lia|].
    apply read_bind_iff; intro fd. apply bind_unit_iff; [apply result_lguard|reflexivity]. }
  split; [intros ([n om] & H)|intro H]; cbn [fst snd] in *; unpack H; subst; repack.
Qed.

Theorem C17_accept_iff_builders :
  forall leaf_c leaf_v canon_pb d,
    (forall n, 0 <= n ->
       (result (gen_private_batch leaf_c leaf_v d n) = Ok tt <->
        1 <= n <= 64 /\ exists fc fv, d F_COMMON = Some fc /\ d F_VERIFIER = Some fv /\
          f_len fc <= 67108864 /\ f_len fv <= 67108864 /\ f_bytes fc = leaf_c /\ f_bytes fv = leaf_v)) /\
    (forall m n, 0 <= m -> 0 <= n ->
       (result (gen_public_batch canon_pb d m n) = Ok tt <->
        1 <= m <= 64 /\ 1 <= n <= 64 /\ exists fc fv, d F_PB_COMMON = Some fc /\ d F_PB_VERIFIER = Some fv /\
          f_len fc <= 67108864 /\ f_len fv <= 67108864 /\
          f_bytes fc = fst (canon_pb n) /\ f_bytes fv = snd (canon_pb n))).
Proof.
  intros leaf_c leaf_v canon_pb d. split.
  - intros n Hn. unfold gen_private_batch, CAP. etransitivity.
    { apply bind_unit_iff; [apply count_ok_nonneg, Hn|]. apply read_bind_iff; intro fc. apply read_bind_iff; intro fv.
      apply bind_unit_iff; [apply load_canonical_leaf_iff|reflexivity]. }
    split; intro H; unpack H; repack.
  - intros m n Hm Hn. unfold gen_public_batch, CAP. etransitivity.
    { apply bind_unit_iff; [apply count_ok_nonneg, Hm|]. apply bind_unit_iff; [apply count_ok_nonneg, Hn|].
      apply read_bind_iff; intro fc. apply read_bind_iff; intro fv.
      apply bind_unit_iff; [apply load_canonical_private_batch_iff, Hn|reflexivity]. }
    split; intro H; unpack H; repack.
Qed.

Theorem C17_no_prover_reads_a_prover_artifact :
  forall leaf_c leaf_v canon_pb canon_pub reser_c reser_v cfg_ok leaf_template_ok pb_template_ok parse_config (d : dir),
    Forall (fun e => is_prover_id (ev_id e) = false)
           (trace (private_prover_from_dir leaf_c leaf_v leaf_template_ok parse_config d)) /\
    Forall (fun e => is_prover_id (ev_id e) = false)
           (trace (public_prover_from_dir canon_pb pb_template_ok parse_config d)) /\
    Forall (fun e => is_prover_id (ev_id e) = false)
           (trace (aggregator_new canon_pb canon_pub reser_c reser_v cfg_ok pb_template_ok parse_config d)) /\
    trace leaf_prover_new = [].
Proof.
  intros. repeat split; [apply private_prover_reads|apply public_prover_reads|apply aggregator_new_reads];
    apply reads_not_prover; reflexivity.
Qed.

Theorem C17_extra_files_are_inert :
  forall leaf_c leaf_v canon_pb canon_pub reser_c reser_v cfg_ok leaf_template_ok pb_template_ok parse_config (d d' : dir),
    (dir_agree PRIVATE_PROVER_FILES d d' ->
       private_prover_from_dir leaf_c leaf_v leaf_template_ok parse_config d =
       private_prover_from_dir leaf_c leaf_v leaf_template_ok parse_config d') /\
    (dir_agree PUBLIC_PROVER_FILES d d' ->
       public_prover_from_dir canon_pb pb_template_ok parse_config d =
       public_prover_from_dir canon_pb pb_template_ok parse_config d') /\
    (dir_agree AGGREGATOR_FILES d d' ->
       aggregator_new canon_pb canon_pub reser_c reser_v cfg_ok pb_template_ok parse_config d =
       aggregator_new canon_pb canon_pub reser_c reser_v cfg_ok pb_template_ok parse_config d').
Proof.
  intros. split; [apply private_prover_agree|split; [apply public_prover_agree|apply aggregator_new_agree]].
Qed.

Theorem C17_oversize_file_never_read :
  forall leaf_c leaf_v canon_pb canon_pub reser_c reser_v cfg_ok leaf_template_ok pb_template_ok parse_config
         (d : dir) (id : Z) (f : file),
    d id = Some f -> f_len f > 67108864 ->
    Forall (fun e => e <> EvRead id) (trace (private_prover_from_dir leaf_c leaf_v leaf_template_ok parse_config d)) /\
    Forall (fun e => e <> EvRead id) (trace (public_prover_from_dir canon_pb pb_template_ok parse_config d)) /\
    Forall (fun e => e <> EvRead id)
           (trace (aggregator_new canon_pb canon_pub reser_c reser_v cfg_ok pb_template_ok parse_config d)) /\
    (forall n, Forall (fun e => e <> EvRead id) (trace (gen_private_batch leaf_c leaf_v d n))) /\
    (forall m n, Forall (fun e => e <> EvRead id) (trace (gen_public_batch canon_pb d m n))).
Proof.
  intros until f. intros E H.
  repeat split; intros;
    [apply private_prover_reads|apply public_prover_reads|apply aggregator_new_reads
    |apply gen_private_batch_reads|apply gen_public_batch_reads];
    intros id' _; apply (read_never_oversize _ _ _ _ _ E H).
Qed.

(* the size test comes first: an oversized artifact is stat'ed, not opened, and the loader stops with the size error *)
Theorem C17_oversize_rejected_first :
  forall (cap id : Z) (d : dir) (f : file),
    d id = Some f -> f_len f > cap -> read_artifact_file cap id d = ([EvStat id], Err E_SIZE).
Proof. intros cap id d f. apply read_oversize. Qed.

Definition ex_keccak (b : bytes) : bytes := [Z.of_nat (length b); nth 0 b 0].
Example C17_ex_verifier_accepts :
  verifier_new_from_bytes ex_keccak (ex_keccak [7; 8]) (ex_keccak [9]) (fun _ _ => true) [7; 8] [9]
  = ([EvHash 0; EvHash 1], Ok tt).
Proof. reflexivity. Qed.
Example C17_ex_verifier_rejects_flip :
  verifier_new_from_bytes ex_keccak (ex_keccak [7; 8]) (ex_keccak [9]) (fun _ _ => true) [6; 8] [9]
  = ([EvHash 0], Err E_PIN).
Proof. reflexivity. Qed.
Example C17_ex_leaf_accept : load_canonical_leaf [1; 2] [3] [1; 2] [3] = Ok tt. Proof. reflexivity. Qed.
Example C17_ex_leaf_extended : load_canonical_leaf [1; 2] [3] [1; 2; 0] [3] = Err E_PIN. Proof. reflexivity. Qed.
Example C17_ex_leaf_truncated : load_canonical_leaf [1; 2] [3] [1] [3] = Err E_PIN. Proof. reflexivity. Qed.
Definition ex_dir : dir := fun i =>
  if i =? F_CONFIG then Some (mkFile 2 [1; 1])
  else if i =? F_COMMON then Some (mkFile 2 [1; 2])
  else if i =? F_VERIFIER then Some (mkFile 1 [3])
  else if i =? F_DUMMY then Some (mkFile 1 [1])
  else if i =? F_PB_PROVER then Some (mkFile 5 [6; 6; 6; 6; 6])
  else None.
Definition ex_parse (b : bytes) : option (Z * option Z) :=
  match b with [n; m] => Some (n, Some m) | _ => None end.
Example C17_ex_private_prover_accepts :
  private_prover_from_dir [1; 2] [3] (fun b => list_eqb b [1]) ex_parse ex_dir
  = ([EvStat 8; EvRead 8; EvStat 0; EvRead 0; EvStat 1; EvRead 1; EvStat 2; EvRead 2], Ok tt).
Proof. reflexivity. Qed.
Example C17_ex_private_prover_oversized :
  private_prover_from_dir [1; 2] [3] (fun b => list_eqb b [1]) ex_parse
    (fun i => if i =? F_VERIFIER then Some (mkFile 67108865 []) else ex_dir i)
  = ([EvStat 8; EvRead 8; EvStat 0; EvRead 0; EvStat 1], Err E_SIZE).
Proof. reflexivity. Qed.
