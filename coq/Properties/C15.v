(* C15 - Private-batch padding and shuffling are exact and uniform; public batches keep the given order.

   Model: Sys/Shuffle.v (hand-written after private_batch/prover/lib.rs commit, public_batch/prover/lib.rs commit,
   dummy_proof.rs generate_random_nullifier_preimage, rand 0.8.6 seq/mod.rs shuffle + gen_index and
   distributions/uniform.rs sample_single_inclusive for u32; tied to the implementation by harness/src/bin/shuffle.rs).
   Proofs: Sys/ShuffleProofs.v.

   Randomness is an INPUT of the model: a draw vector (one index in [0,i] for i = n-1, .., 1), the u32 outputs of
   the generator, a stream of 32-byte candidates.  The theorems say that the committed batch is an exact, bijective
   function of those inputs; that ThreadRng delivers uniform independent outputs is outside the model (level: partial).

   Vocabulary (Sys/Shuffle.v, Sys/ShuffleProofs.v):
     pad proofs t n        = proofs ++ repeat t (n - length proofs)
     fisher_yates l draws  = rand's shuffle: for i = len-1 downto 1: swap(i, next draw)
     valid_draws i ds      = ds has one entry per step i, i-1, .., 1, the entry for step j lying in [0, j]
     all_draws i           = the list of all such vectors
     gen_index range s     = rand's gen_range(0..range as u32) on the u32 stream s (widening multiply + rejection zone)
     accept32 / wmul_hi    = the acceptance test and the returned index of one u32 output
     accepted c            = BytesDigest::try_from(c) is Ok        canonical d = 4 limbs, each in [0, p)
     sample_preimage       = the rejection loop of generate_random_nullifier_preimage over a candidate stream
     sample_preimages n    = generate_dummy_nullifier_pre_images_for_slots(n) *)
From Coq Require Import Permutation.
From V.Base Require Import Common.
From V.Generated Require Import Constants.
From V.Sys Require Import Encoding EncodingProofs Shuffle ShuffleProofs.

Lemma C15_pin_order : INPUTS_GOLDILOCKS_ORDER = p. Proof. reflexivity. Qed.
Lemma C15_pin_p : p = 2 ^ 64 - 2 ^ 32 + 1. Proof. reflexivity. Qed.
Lemma C15_pin_digest_len : DIGEST_BYTES_LEN = 32. Proof. reflexivity. Qed.
(* every batch size a constructor accepts is far below the u32 bound of rand's gen_index fast path *)
Lemma C15_pin_max_proof_count : MAX_PROOF_COUNT = 64 /\ MAX_PROOF_COUNT < two32. Proof. split; reflexivity. Qed.

(* padding: exactly the k proofs + (n-k) templates *)
Theorem C15_padding_multiset :
  forall (A : Type) (proofs : list A) (template : A) (n : nat) (draws : list nat),
    (forall slots, commit_private proofs template n draws = Ok slots ->
       (1 <= length proofs <= n)%nat /\ length slots = n /\
       Permutation slots (proofs ++ repeat template (n - length proofs))) /\
    ((1 <= length proofs <= n)%nat -> exists slots, commit_private proofs template n draws = Ok slots) /\
    ((length proofs = 0 \/ n < length proofs)%nat -> commit_private proofs template n draws = Err 1).
Proof.
  intros A proofs template n draws. split; [|split].
  - apply commit_private_spec.
  - apply commit_private_accepts.
  - apply commit_private_rejects.
Qed.

(* the shuffle permutes, whatever is drawn *)
Theorem C15_shuffle_is_permutation :
  (forall (A : Type) (l : list A) (draws : list nat), Permutation (fisher_yates l draws) l) /\
  (forall (A : Type) (l out : list A) (stream rest : list Z) (ds : list nat),
     Z.of_nat (length l) < two32 -> Forall (fun v => 0 <= v < two32) stream ->
     shuffle_stream l stream = Some (out, ds, rest) ->
     valid_draws (length l - 1) ds /\ out = fisher_yates l ds /\ Permutation out l).
Proof.
  split.
  - intros A l draws. apply fisher_yates_perm.
  - intros A l out stream rest ds _ U H. eapply shuffle_stream_spec; eassumption.
Qed.

(* draw vectors <-> slot orders, one to one; n! of them *)
Theorem C15_shuffle_bijection :
  (forall (A : Type) (l t : list A), NoDup l -> Permutation l t ->
     exists! ds, valid_draws (length l - 1) ds /\ fisher_yates l ds = t) /\
  (forall n : nat, (1 <= n)%nat ->
     length (all_draws (n - 1)) = fact n /\ NoDup (all_draws (n - 1)) /\
     forall ds, In ds (all_draws (n - 1)) <-> valid_draws (n - 1) ds).
Proof.
  split.
  - intros A l t. apply fy_go_bijection. reflexivity.
  - intros n Hn. replace n with (S (n - 1)) at 2 by lia.
    split; [apply all_draws_length|]. split; [apply all_draws_nodup|apply all_draws_spec].
Qed.

(* rand's index draw: in range, and exactly uniform
   over the u32 outputs it accepts (each index h is produced by exactly 2^lz consecutive u32 values) *)
Theorem C15_gen_index_uniform :
  (forall range stream d rest, 0 < range -> Forall (fun v => 0 <= v < two32) stream ->
     gen_index range stream = Some (d, rest) ->
     0 <= d < range /\
     exists rej v, stream = rej ++ v :: rest /\ Forall (fun w => accept32 range w = false) rej /\
                   accept32 range v = true /\ d = wmul_hi v range) /\
  (forall range h, 0 < range < two32 -> 0 <= h < range ->
     let K := 2 ^ lz32 range in
     let c := (h * two32 + range - 1) / range in
     0 <= c /\ c + K <= two32 /\
     forall v, 0 <= v < two32 -> (accept32 range v = true /\ wmul_hi v range = h <-> c <= v < c + K)).
Proof.
  split.
  - intros range stream d rest R U H. split.
    + eapply gen_index_in_range; eassumption.
    + apply gen_index_spec. exact H.
  - intros range h R H K c. destruct (lz32_facts range R) as (K0 & [_ B] & _).
    destruct (mul_window two32 range K h) as (C0 & CK & W); [lia..|].
    split; [exact C0|]. split; [exact CK|]. intros v _. rewrite accept32_iff by exact R. apply W.
Qed.

Theorem C15_preimage_canonical :
  (* what the sampler returns: the digest of the first accepted candidate, which is canonical *)
  (forall cands d rest, Forall (Forall byte) cands -> sample_preimage cands = Some (d, rest) ->
     canonical d /\
     exists rej c, cands = rej ++ c :: rest /\ Forall (fun r => ~ accepted r) rej /\ accepted c /\ d = bytes_to_digest c) /\
  (* accepted = length 32 and every 8-byte little-endian limb below p *)
  (forall c, accepted c <-> zlen c = 32 /\ Forall (fun v => v < p) (limbs8 c)) /\
  (* accepted byte strings <-> canonical digests, one to one: uniform accepted candidates = uniform canonical digests *)
  (forall d, canonical d -> exists! c, Forall byte c /\ accepted c /\ bytes_to_digest c = d) /\
  (* one candidate per slot: slot j is the digest of the j-th accepted candidate of the stream *)
  (forall n cands ds, sample_preimages n cands = Some ds <->
     ((n <= length (filter acceptedb cands))%nat /\ ds = map bytes_to_digest (firstn n (filter acceptedb cands)))).
Proof.
  split; [|split; [|split]].
  - intros cands d rest B H. destruct (sample_preimage_spec cands d rest H) as [rej [c [E [F [Ac Ed]]]]].
    split.
    + subst d. apply accepted_canonical; [|exact Ac]. subst cands. apply Forall_app in B. destruct B as [_ B].
      inversion B; assumption.
    + exists rej, c. repeat split; assumption.
  - apply accepted_iff.
  - apply canonical_has_unique_candidate.
  - intros n cands ds. rewrite sample_preimages_eq. cbv zeta.
    destruct (Nat.leb_spec n (length (filter acceptedb cands))) as [L|L].
    + split; [intros [= <-]; auto|intros [_ ->]; reflexivity].
    + split; [discriminate|intros [L' _]; lia].
Qed.

(* public batch: given order, then templates *)
Theorem C15_public_order_preserved :
  forall (A : Type) (proofs : list A) (template : A) (n : nat),
    (forall slots, commit_public proofs template n = Ok slots ->
       (1 <= length proofs <= n)%nat /\ length slots = n /\
       firstn (length proofs) slots = proofs /\
       skipn (length proofs) slots = repeat template (n - length proofs)) /\
    ((1 <= length proofs <= n)%nat -> commit_public proofs template n = Ok (proofs ++ repeat template (n - length proofs))) /\
    ((length proofs = 0 \/ n < length proofs)%nat -> commit_public proofs template n = Err 1).
Proof.
  intros A proofs template n. split; [|split].
  - apply commit_public_spec.
  - apply commit_public_accepts.
  - apply commit_public_rejects.
Qed.

(* the predicates evaluated on REAL commits mean what
   the property says (soundness of the executable checks used by the correspondence run) *)
Theorem C15_observation_checks_sound :
  (forall k n labels pre, private_obs_ok k n labels pre = true ->
     Permutation labels (real_labels k ++ repeat 0 (n - k)) /\ length labels = n /\
     length (chunks4 pre) = n /\ Forall canonical (chunks4 pre) /\ NoDup (chunks4 pre)) /\
  (forall k n labels, public_obs_ok k n labels = true <-> labels = real_labels k ++ repeat 0 (n - k)) /\
  (forall pre1 pre2, fresh_ok pre1 pre2 = true ->
     NoDup (chunks4 pre1 ++ chunks4 pre2) /\ Forall canonical (chunks4 pre1 ++ chunks4 pre2)).
Proof.
  split; [|split].
  - apply private_obs_ok_sound.
  - apply public_obs_ok_spec.
  - apply fresh_ok_sound.
Qed.

(* 2 proofs into 4 slots, draws (for steps 3, 2, 1) = 1, 2, 0 *)
Example C15_ex_commit : commit_private [11; 22] 0 4 [1; 2; 0]%nat = Ok [0; 11; 0; 22].
Proof. reflexivity. Qed.
Example C15_ex_commit_rejects : commit_private (@nil Z) 0 4 [] = Err 1 /\ commit_private [1; 2; 3] 0 2 [] = Err 1.
Proof. split; reflexivity. Qed.
Example C15_ex_valid_draws : valid_draws 3 [1; 2; 0]%nat /\ ~ valid_draws 3 [4; 0; 0]%nat /\ length (all_draws 3) = 24%nat.
Proof. split; [|split]; cbn; try lia; try reflexivity. Qed.
(* the six draw vectors of n = 3 give the six orders *)
Example C15_ex_all_orders_3 :
  map (fisher_yates [0; 1; 2]) (all_draws 2)
  = [[1; 2; 0]; [2; 1; 0]; [2; 0; 1]; [0; 2; 1]; [1; 0; 2]; [0; 1; 2]].
Proof. reflexivity. Qed.
(* range 3: zone = 0xBFFFFFFF; 0xFFFFFFFF is rejected (3 * v mod 2^32 = 0xFFFFFFFD), 0x80000000 gives index 1 *)
Example C15_ex_gen_index : gen_index 3 [4294967295; 2147483648; 7] = Some (1, [7]) /\ zone32 3 = 3221225471.
Proof. split; reflexivity. Qed.
Example C15_ex_public : commit_public [11; 22] 0 4 = Ok [11; 22; 0; 0].
Proof. reflexivity. Qed.
(* a candidate whose first limb is p is rejected, the next one (limbs p-1, 0, 0, 0) accepted *)
Example C15_ex_preimage :
  sample_preimage [ [1;0;0;0;255;255;255;255] ++ repeat 0 24%nat; [0;0;0;0;255;255;255;255] ++ repeat 0 24%nat ]
  = Some ([p - 1; 0; 0; 0], []).
Proof. reflexivity. Qed.
Example C15_ex_obs : private_obs_ok 2 3 [0; 2; 1] [1;2;3;4; 5;6;7;8; 9;10;11;12] = true /\
                     private_obs_ok 2 3 [1; 2; 2] [1;2;3;4; 5;6;7;8; 9;10;11;12] = false /\
                     private_obs_ok 2 3 [0; 2; 1] [1;2;3;4; 1;2;3;4; 9;10;11;12] = false /\
                     public_obs_ok 2 3 [1; 2; 0] = true /\ public_obs_ok 2 3 [0; 1; 2] = false.
Proof. repeat split; reflexivity. Qed.
