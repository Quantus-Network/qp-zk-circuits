(* C29 - Per-layer proof counts are bounded at every entry point; layout-length arithmetic never wraps.

   Model: Sys/Parsers.v ([validate_proof_count], [pi_len_wrapping], [try_pi_len], the aggregator layout helpers
   [pr_*] / [pu_*] with explicit [wrap64], [config_accepts], [counts_accept]); proofs: Sys/ParsersProofs.v.
   "Every entry point rejects 0 and > 64 before allocating or building" and the config-file round trip are
   conformance runs of the real code (harness/src/bin/counts.rs) against [counts_accept] / [config_accepts];
   what is proved here is the arithmetic and the exact accepted sets of those model functions. *)
From V.Base Require Import Common.
From V.Generated Require Import Constants.
From V.Sys Require Import Parsers ParsersProofs.

Lemma C29_pin_max_proof_count : MAX_PROOF_COUNT = 64. Proof. reflexivity. Qed.
Lemma C29_pin_agg_max_proof_count : AGG_MAX_PROOF_COUNT = 64. Proof. reflexivity. Qed.
Lemma C29_pin_layout_constants :
  [LEAF_PI_LEN; PUBLIC_HEADER_LEN; PUBLIC_EXIT_SLOT_LEN; PR_LEAF_PI_LEN; PR_OUT_HEADER_LEN; PR_OUT_EXIT_SLOT_LEN; PU_HEADER_LEN]
  = [21; 12; 5; 21; 8; 5; 12].
Proof. reflexivity. Qed.
Lemma C29_pin_two64 : two64 = 2 ^ 64. Proof. reflexivity. Qed.

Theorem C29_validate_exact : forall c,
  0 <= c < two64 -> (validate_proof_count c = Ok tt <-> 1 <= c <= 64).
Proof. intros c H. rewrite validate_ok_iff. lia. Qed.

(* an entry point taking counts cs accepts (as far as the counts are concerned) iff every count is in 1..64 *)
Theorem C29_counts_accept_iff : forall cs,
  Forall (fun c => 0 <= c < two64) cs -> (counts_accept cs = true <-> Forall (fun c => 1 <= c <= 64) cs).
Proof.
  intros cs F. unfold counts_accept. induction F as [|c l Hc _ IH]; cbn [forallb].
  - split; [constructor|reflexivity].
  - rewrite andb_true_iff, IH, is_ok_validate_iff by lia. split.
    + intros [A B]. constructor; assumption.
    + intro H. inversion H; subst. auto.
Qed.

(* CircuitBinsConfig::{new, validate, load}: num_leaf_proofs in 1..64, num_private_batch_proofs absent or in 1..64 *)
Theorem C29_config_accepts_iff : forall l o,
  0 <= l -> match o with Some n => 0 <= n | None => True end ->
  (config_accepts l o = true <-> 1 <= l <= 64 /\ match o with Some n => 1 <= n <= 64 | None => True end).
Proof.
  intros l o Hl Ho. unfold config_accepts. rewrite andb_true_iff, is_ok_validate_iff by exact Hl.
  destruct o as [n|]; [rewrite is_ok_validate_iff by exact Ho|]; tauto.
Qed.

(* every layout expression of wormhole/inputs (public_batch_pi::{pi_len, try_pi_len}) and of the aggregator
   (private_batch/circuit/constants.rs aggregated_output::*, public_batch/circuit/constants.rs), evaluated with
   wrapping 64-bit arithmetic, equals its mathematical value *)
Theorem C29_no_wrap : forall m n,
  1 <= m <= 64 -> 1 <= n <= 64 ->
  pi_len_exact m n < two64 /\
  pi_len_wrapping m n = pi_len_exact m n /\
  try_pi_len m n = Some (pi_len_exact m n) /\
  (pr_exit_slots_count n = 2 * n /\ pr_nullifiers_count n = n /\ pr_exit_slots_start = 8 /\
   pr_nullifiers_start n = 8 + 10 * n /\ pr_pi_len n = 8 + 21 * n) /\
  (pu_total_exit_slots m n = 2 * (m * n) /\ pu_total_nullifiers m n = m * n /\ pu_exit_slots_start = 12 /\
   pu_nullifiers_start m n = 12 + 10 * (m * n) /\ pu_pi_len m n = pi_len_exact m n).
Proof.
  intros m n Hm Hn. destruct (try_pi_len_valid m n Hm Hn) as [T X].
  split; [rewrite X; pose proof (small_product m n Hm Hn); unfold two64; lia|].
  split; [apply pi_len_wrapping_valid; assumption|]. split; [exact T|].
  split; [apply pr_layout_valid; assumption|apply pu_layout_valid; assumption].
Qed.

Lemma C29_pi_len_exact_def : forall m n, pi_len_exact m n = 12 + m * (2 * n) * 5 + m * n * 4.
Proof. reflexivity. Qed.

(* The statement "None <-> pi_len_exact >= 2^64" is FALSE for m = 0: try_pi_len starts with
   num_leaf_proofs.checked_mul(2), which overflows for n >= 2^63 although 12 + 0 fits.  (Harmless: the
   function errs on the side of None, and every caller validates m >= 1 first.)  The exact statement: *)
Theorem C29_try_pi_len_none_iff_overflow : forall m n,
  0 <= m < two64 -> 0 <= n < two64 ->
  (try_pi_len m n = None <-> 2 * n >= two64 \/ pi_len_exact m n >= two64).
Proof. intros m n Hm Hn. apply try_pi_len_none_iff; lia. Qed.

Theorem C29_try_pi_len_none_iff_overflow_pos : forall m n,
  1 <= m < two64 -> 0 <= n < two64 ->
  (try_pi_len m n = None <-> pi_len_exact m n >= two64).
Proof.
  intros m n Hm Hn. rewrite C29_try_pi_len_none_iff_overflow by lia.
  assert (n <= m * n) by nia. unfold pi_len_exact. lia.
Qed.

Theorem C29_try_pi_len_some_is_exact : forall m n v,
  0 <= m -> 0 <= n -> try_pi_len m n = Some v -> v = pi_len_exact m n /\ v < two64.
Proof.
  intros m n v Hm Hn H. apply try_pi_len_some_iff in H; [|assumption..]. destruct H as (_ & B & ->). auto.
Qed.

Example C29_try_pi_len_none_iff_overflow_refuted :
  exists m n, 0 <= m < two64 /\ 0 <= n < two64 /\ try_pi_len m n = None /\ pi_len_exact m n < two64.
Proof. exists 0, (2 ^ 63). vm_compute. repeat split; discriminate. Qed.

Example C29_ex_validate :
  validate_proof_count 1 = Ok tt /\ validate_proof_count 64 = Ok tt /\
  is_ok (validate_proof_count 0) = false /\ is_ok (validate_proof_count 65) = false /\
  is_ok (validate_proof_count (two64 - 1)) = false.
Proof. vm_compute. repeat split; reflexivity. Qed.
Example C29_ex_lengths :
  try_pi_len 64 64 = Some 57356 /\ pi_len_wrapping 64 64 = 57356 /\ pu_pi_len 64 64 = 57356 /\ pr_pi_len 64 = 1352 /\
  (* wrap-around of the unchecked helper on unvalidated counts: 2^63 * 2 = 0 mod 2^64, an "empty" layout *)
  pi_len_wrapping 1 (2 ^ 63) = 12 /\ try_pi_len 1 (2 ^ 63) = None /\ pr_pi_len (two64 / 21 + 1) = 13.
Proof. vm_compute. repeat split; reflexivity. Qed.
Example C29_ex_config :
  config_accepts 7 (Some 4) = true /\ config_accepts 8 None = true /\ config_accepts 0 (Some 4) = false /\
  config_accepts 16 (Some 0) = false /\ config_accepts 65 None = false /\ config_accepts 16 (Some 65) = false.
Proof. vm_compute. repeat split; reflexivity. Qed.
