(* C25 - byte, digest and integer encodings are lossless and reject out-of-range input.
   Model: Sys/Encoding.v (tied to /repo by the correspondence run of harness/src/bin/encoding.rs);
   proofs: Sys/EncodingProofs.v.  Bytes are integers in [0,256); a field element is its raw inner
   u64 and [to_canonical] is to_canonical_u64; [p] is the Goldilocks modulus (a literal). *)
From V.Base Require Import Common.
From V.Generated Require Import Constants.
From V.Sys Require Import Encoding EncodingProofs.

Lemma C25_pin_max_bytes : MAX_SERIALIZED_BYTES = 1048576. Proof. reflexivity. Qed.
Lemma C25_pin_max_felts : MAX_SERIALIZED_FELTS = 262145. Proof. reflexivity. Qed.
Lemma C25_pin_bytes_per_felt : BYTES_PER_FELT = 4. Proof. reflexivity. Qed.
Lemma C25_pin_felt_cap_formula :
  MAX_SERIALIZED_FELTS = (MAX_SERIALIZED_BYTES + BYTES_PER_FELT) / BYTES_PER_FELT.
Proof. reflexivity. Qed.
Lemma C25_pin_digest_len : DIGEST_BYTES_LEN = 32. Proof. reflexivity. Qed.
Lemma C25_pin_field_orders :
  INPUTS_GOLDILOCKS_ORDER = 18446744069414584321 /\ FIELD_ORDER = 18446744069414584321 /\
  POSEIDON_CORE_P = 18446744069414584321 /\ p = 18446744069414584321.
Proof. repeat split; reflexivity. Qed.
Lemma C25_pin_limb_mask : SER_BIT_32_LIMB_MASK = 4294967296 - 1 /\ two32 = 4294967296. Proof. split; reflexivity. Qed.
Lemma C25_pin_quantization : AMOUNT_QUANTIZATION_FACTOR = 10000000000. Proof. reflexivity. Qed.
Lemma C25_pin_limb_counts : FELTS_PER_U64 = 2 /\ FELTS_PER_U128 = 4 /\ POSEIDON2_OUTPUT = 4.
Proof. repeat split; reflexivity. Qed.

(* decode (encode bs) = bs for every byte string up to the cap *)
Theorem C25_edge_roundtrip :
  forall bs, Forall (fun b => 0 <= b < 256) bs -> zlen bs <= 1048576 ->
    (fs <-? bytes_to_felts bs ;; felts_to_bytes fs) = Ok bs.
Proof. exact edge_roundtrip. Qed.

Theorem C25_edge_injective :
  forall a b fa fb, Forall (fun x => 0 <= x < 256) a -> Forall (fun x => 0 <= x < 256) b ->
    bytes_to_felts a = Ok fa -> bytes_to_felts b = Ok fb -> fa = fb -> a = b.
Proof. exact edge_injective. Qed.

(* encode rejects exactly the inputs longer than 2^20 bytes; what it accepts has len/4 + 1 <= 262145
   felts, which is the decoder's cap; the decoder rejects anything longer *)
Theorem C25_edge_cap :
  (forall bs, is_ok (bytes_to_felts bs) = false <-> 1048576 < zlen bs) /\
  (forall bs, zlen bs <= 1048576 ->
     bytes_to_felts bs = Ok (encode_raw bs) /\ zlen (encode_raw bs) = zlen bs / 4 + 1 /\
     zlen (encode_raw bs) <= 262145) /\
  (forall raw, 262145 < zlen raw -> felts_to_bytes raw = Err 1).
Proof. exact (conj edge_encode_rejects_iff (conj edge_encode_accepts edge_decode_cap)). Qed.

(* decoding never panics, and it accepts a felt vector exactly when the vector is within the cap and
   its canonical values are the encoding of a byte string - which is then the result *)
Theorem C25_decode_total :
  (forall raw, felts_to_bytes raw <> Err (-1)) /\
  (forall raw bs, Forall (fun v => 0 <= v) raw ->
     (felts_to_bytes raw = Ok bs <->
      (zlen raw <= 262145 /\ map to_canonical raw = encode_raw bs /\ Forall (fun b => 0 <= b < 256) bs))).
Proof. exact (conj felts_to_bytes_safe felts_to_bytes_spec). Qed.

(* a digest (four little-endian 8-byte limbs) is accepted iff every limb is below p; every 32-byte
   string is of that form; other lengths are rejected; nothing panics *)
Theorem C25_digest_accept_iff :
  (forall l0 l1 l2 l3, 0 <= l0 < two64 -> 0 <= l1 < two64 -> 0 <= l2 < two64 -> 0 <= l3 < two64 ->
     (is_ok (bytes_digest_try_from (to_le 8 l0 ++ to_le 8 l1 ++ to_le 8 l2 ++ to_le 8 l3)) = true <->
      (l0 < p /\ l1 < p /\ l2 < p /\ l3 < p))) /\
  (forall bs, Forall (fun b => 0 <= b < 256) bs -> zlen bs = 32 ->
     exists l0 l1 l2 l3, 0 <= l0 < two64 /\ 0 <= l1 < two64 /\ 0 <= l2 < two64 /\ 0 <= l3 < two64 /\
                         bs = to_le 8 l0 ++ to_le 8 l1 ++ to_le 8 l2 ++ to_le 8 l3) /\
  (forall bs, zlen bs <> 32 -> bytes_digest_try_from bs = Err 1) /\
  (forall bs out, bytes_digest_try_from bs = Ok out -> out = bs) /\
  (forall bs, bytes_digest_try_from bs <> Err (-1)).
Proof.
  split; [exact digest_limbs_accept_iff|]. split; [exact digest_bytes_limbs|]. split; [exact digest_wrong_len|].
  exact (conj digest_try_from_id digest_try_from_safe).
Qed.

(* accepted digests survive bytes -> felts -> bytes, no other 32-byte string does, and the bytes of
   any four field elements are an accepted digest that decodes to their canonical values *)
Theorem C25_digest_roundtrip :
  (forall bs out, Forall (fun b => 0 <= b < 256) bs -> bytes_digest_try_from bs = Ok out ->
     digest_to_bytes (bytes_to_digest bs) = bs) /\
  (forall bs, Forall (fun b => 0 <= b < 256) bs -> zlen bs = 32 ->
     digest_to_bytes (bytes_to_digest bs) = bs -> bytes_digest_try_from bs = Ok bs) /\
  (forall raw, length raw = 4%nat -> Forall (fun f => 0 <= f < two64) raw ->
     utils_digest_to_bytes raw = Ok (digest_to_bytes raw) /\
     bytes_to_digest (digest_to_bytes raw) = map to_canonical raw).
Proof. exact (conj digest_roundtrip (conj digest_roundtrip_only_accepted digest_felts_valid)). Qed.

(* integer limb codecs: accepted iff every (canonical) limb is below 2^32; decode inverts encode
   and encode inverts decode; for a raw u64 the canonical value is below 2^32 iff raw < 2^32 or raw >= p *)
Theorem C25_limbs_accept_iff_and_inverse :
  (forall f0 f1, is_ok (try_felts_to_u64 [f0; f1]) = true <->
                 (to_canonical f0 < two32 /\ to_canonical f1 < two32)) /\
  (forall n, 0 <= n < two64 -> try_felts_to_u64 (u64_to_felts n) = Ok n) /\
  (forall f0 f1 n, 0 <= f0 -> 0 <= f1 -> try_felts_to_u64 [f0; f1] = Ok n ->
     0 <= n < two64 /\ u64_to_felts n = [to_canonical f0; to_canonical f1]) /\
  (forall f0 f1, try_felts_to_u64 [f0; f1] <> Err (-1)) /\
  (forall f0 f1 f2 f3, is_ok (try_felts_to_u128 [f0; f1; f2; f3]) = true <->
     (to_canonical f0 < two32 /\ to_canonical f1 < two32 /\ to_canonical f2 < two32 /\ to_canonical f3 < two32)) /\
  (forall n, 0 <= n < two64 * two64 -> try_felts_to_u128 (u128_to_felts n) = Ok n) /\
  (forall f0 f1 f2 f3 n, 0 <= f0 -> 0 <= f1 -> 0 <= f2 -> 0 <= f3 ->
     try_felts_to_u128 [f0; f1; f2; f3] = Ok n ->
     0 <= n < two64 * two64 /\
     u128_to_felts n = [to_canonical f0; to_canonical f1; to_canonical f2; to_canonical f3]) /\
  (forall f0 f1 f2 f3, try_felts_to_u128 [f0; f1; f2; f3] <> Err (-1)) /\
  (forall f, 0 <= f < two64 -> (to_canonical f < two32 <-> (f < two32 \/ p <= f))).
Proof.
  exact (conj u64_accept_iff (conj u64_encode_decode (conj u64_decode_encode (conj u64_safe
        (conj u128_accept_iff (conj u128_encode_decode (conj u128_decode_encode (conj u128_safe
        to_canonical_limb_iff)))))))).
Qed.

(* quantised amounts: failure exactly when num / 10^10 exceeds u32::MAX, i.e. num >= 2^32 * 10^10;
   otherwise the felt is num / 10^10 and de-quantising returns num rounded down to a multiple of 10^10 *)
Theorem C25_quantize_fails_iff :
  (forall num, 0 <= num ->
     (is_ok (try_u128_to_quantized_felt num) = false <-> 4294967295 < num / 10000000000) /\
     (4294967295 < num / 10000000000 <-> 42949672960000000000 <= num)) /\
  (forall num q, 0 <= num -> try_u128_to_quantized_felt num = Ok q ->
     q = num / 10000000000 /\ 0 <= q < two32 /\
     try_felt_to_quantized_u128 q = Ok (num - num mod 10000000000)).
Proof. exact (conj quantize_fails_iff quantize_roundtrip). Qed.

(* non-vacuity: the hypotheses are met and both outcomes occur *)
Example C25_ex_roundtrip :
  bytes_to_felts [104; 101; 108; 108; 111] = Ok [1819043176; 367] /\
  felts_to_bytes [1819043176; 367] = Ok [104; 101; 108; 108; 111] /\
  bytes_to_felts [] = Ok [1] /\ felts_to_bytes [1] = Ok [] /\
  bytes_to_felts [1; 2; 3] <> bytes_to_felts [1; 2; 3; 0].
Proof. repeat split; try reflexivity. vm_compute. discriminate. Qed.
Example C25_ex_decode_rejects :
  felts_to_bytes [] = Err 2 /\ felts_to_bytes [4294967296; 1] = Err 3 /\ felts_to_bytes [305419896; 2] = Err 4 /\
  felts_to_bytes [18446744069414584322] = Ok [] (* raw p + 1 is the field element 1 *).
Proof. repeat split; reflexivity. Qed.
Example C25_ex_digest :
  is_ok (bytes_digest_try_from (to_le 8 (p - 1) ++ to_le 8 0 ++ to_le 8 1 ++ to_le 8 (p - 1))) = true /\
  bytes_digest_try_from (to_le 8 0 ++ to_le 8 p ++ to_le 8 0 ++ to_le 8 0) = Err 2 /\
  digest_to_bytes (bytes_to_digest (to_le 8 0 ++ to_le 8 p ++ to_le 8 0 ++ to_le 8 0)) = repeat 0 32.
Proof. vm_compute. repeat split; reflexivity. Qed.
Example C25_ex_limbs :
  try_felts_to_u64 [4294967295; 4294967295] = Ok 18446744073709551615 /\
  try_felts_to_u64 [4294967296; 0] = Err 5 /\
  try_felts_to_u64 [18446744069414584321 + 7; 0] = Ok 30064771072 /\
  u128_to_felts (two64 * two64 - 1) = [4294967295; 4294967295; 4294967295; 4294967295].
Proof. vm_compute. repeat split; reflexivity. Qed.
Example C25_ex_quantize :
  try_u128_to_quantized_felt 42949672959999999999 = Ok 4294967295 /\
  try_u128_to_quantized_felt 42949672960000000000 = Err 6.
Proof. split; reflexivity. Qed.
