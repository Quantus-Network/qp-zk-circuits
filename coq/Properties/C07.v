(* C07 - Acceptance condition of the private-batch wrapper circuit.

   For well-formed child statements, a witness satisfying build_private_batch_constraints
   (wormhole/aggregator/src/private_batch/circuit/circuit_logic.rs:171) exists IFF
     - every slot (dummies included) carries the asset id of slot 0,
     - the real slots (non-zero block hash) share one block hash and one volume fee,
     - the nullifiers of the real slots are pairwise distinct,
     - every exit account receives less than 2^32 in total (sum over all real outputs to that account).
   The condition does not depend on the order of the slots, nor on any field of a dummy slot other than
   its (zero) block hash and its asset id.

   Model: Circ/PrivateBatch.v; specification: Spec/LeanPort.v ([priv_compat]); proofs:
   Circ/PrivateBatchProofs.v.  [rel H c post]: some (adversarial) witness satisfies c with an output in post. *)
From Coq Require Import Permutation.
From V.Base Require Import Common.
From V.Generated Require Import Constants.
From V.Circ Require Import Field Core Prims Gadgets PrivateBatch PrivateBatchProofs.
From V.Spec Require Import LeanPort LeanPortFacts.

Local Open Scope Z_scope.

Lemma C07_pin_leaf_pi_len : PR_LEAF_PI_LEN = 21. Proof. reflexivity. Qed.
Lemma C07_pin_leaf_offsets :
  PR_ASSET_ID_START = 0 /\ PR_OUTPUT_AMOUNT_1_START = 1 /\ PR_OUTPUT_AMOUNT_2_START = 2 /\
  PR_VOLUME_FEE_BPS_START = 3 /\ PR_NULLIFIER_START = 4 /\ PR_EXIT_1_START = 8 /\ PR_EXIT_2_START = 12 /\
  PR_BLOCK_HASH_START = 16 /\ PR_BLOCK_NUMBER_START = 20.
Proof. repeat split; reflexivity. Qed.
Lemma C07_pin_max : MAX_PROOF_COUNT = 64. Proof. reflexivity. Qed.
Lemma C07_pin_two32 : two32 = 2 ^ 32. Proof. reflexivity. Qed.

Lemma C07_spec_real q : is_real_pb q = true <-> lf_bh q <> [0; 0; 0; 0].
Proof. exact (is_real_pb_iff q). Qed.
Lemma C07_spec_masked q r :
  maskedChildPairs (q :: r) =
  (if is_dummy_pb q then ([0; 0; 0; 0], 0) else (lf_exit1 q, lf_out1 q)) ::
  (if is_dummy_pb q then ([0; 0; 0; 0], 0) else (lf_exit2 q, lf_out2 q)) :: maskedChildPairs r.
Proof. reflexivity. Qed.
Lemma C07_spec_matchSum k k' a' rest :
  matchSum k ((k', a') :: rest) = (if list_eqb k' k then a' else 0) + matchSum k rest.
Proof. reflexivity. Qed.
(* the grouped sum of an account = what the real children pay to it *)
Lemma C07_spec_group_sum k leaves : matchSum k (maskedChildPairs leaves) = accountTotal k leaves.
Proof. exact (matchSum_masked k leaves). Qed.
Lemma C07_spec_accountTotal k q r :
  accountTotal k (q :: r) =
  (if is_dummy_pb q then 0
   else (if list_eqb (lf_exit1 q) k then lf_out1 q else 0) + (if list_eqb (lf_exit2 q) k then lf_out2 q else 0))
  + accountTotal k r.
Proof. reflexivity. Qed.
Lemma C07_spec_same_up_to_dummy_fields q q' :
  same_up_to_dummy_fields q q' <->
  (q = q' \/ (is_dummy_pb q = true /\ is_dummy_pb q' = true /\ lf_asset q = lf_asset q')).
Proof. reflexivity. Qed.

Theorem C07_accept_iff : forall H,
  (forall l, length (H l) = 4%nat /\ Forall canon (H l)) ->
  forall leaves us, (1 <= length leaves <= 64)%nat -> Forall leaf_wf leaves -> length us = length leaves ->
  ((exists out, rel H (private_batch leaves us) (fun o => o = out)) <-> priv_compat leaves = true).
Proof. intros H Hwf leaves us Hn W Lu. exact (gdet_sat_iff H _ _ _ (gdet_private_batch H Hwf leaves us Hn W Lu)). Qed.

Theorem C07_compat_spelled_out : forall leaves,
  priv_compat leaves = true <->
  Forall (fun q => lf_asset q = lf_asset (nth 0 leaves [])) leaves /\
  (forall q q', In q leaves -> In q' leaves -> lf_bh q <> zero4 -> lf_bh q' <> zero4 ->
                lf_bh q = lf_bh q' /\ lf_fee q = lf_fee q') /\
  NoDup (map lf_null (filter is_real_pb leaves)) /\
  (forall e a, In (e, a) (maskedChildPairs leaves) -> matchSum e (maskedChildPairs leaves) < two32).
Proof.
  intros leaves. rewrite priv_compat_iff. unfold compat_prop. rewrite one_asset_iff.
  split; intros (A & B & C & D); (split; [exact A|split; [|split; [exact C|]]]).
  - destruct B as (bh & fee & B). intros q q' I I' N%is_real_pb_iff N'%is_real_pb_iff.
    destruct (B q I N), (B q' I' N'). split; congruence.
  - intros e a _. apply D.
  - destruct (ref_cases leaves) as [(q0 & I0 & R0 & _)|(N & _)].
    + exists (lf_bh q0), (lf_fee q0). intros m I R. apply B; try assumption; apply is_real_pb_iff; assumption.
    + exists zero4, 0. intros m I R. rewrite Forall_forall in N. rewrite (N m I) in R. discriminate.
  - apply matchSum_lt_all, D.
Qed.

(* the condition is a property of the multiset of (child statement, preimage) pairs *)
Theorem C07_order_irrelevant : forall leaves us leaves' us' : list (list Z),
  length us = length leaves -> length us' = length leaves' ->
  Permutation (combine leaves us) (combine leaves' us') -> priv_compat leaves = priv_compat leaves'.
Proof. intros leaves us leaves' us' L L' P. apply priv_compat_perm, (perm_combine_leaves _ _ _ _ L L' P). Qed.
Theorem C07_order_irrelevant_leaves : forall leaves leaves',
  Permutation leaves leaves' -> priv_compat leaves = priv_compat leaves'.
Proof. exact priv_compat_perm. Qed.

(* replacing a dummy slot by any other dummy slot with the same asset id changes nothing *)
Theorem C07_dummy_fields_irrelevant : forall l1 d d' l2,
  is_dummy_pb d = true -> is_dummy_pb d' = true -> lf_asset d = lf_asset d' ->
  priv_compat (l1 ++ d :: l2) = priv_compat (l1 ++ d' :: l2).
Proof. intros l1 d d' l2 D D' E. apply dummy_noninterference_compat, sdf_replace; assumption. Qed.
Theorem C07_dummy_fields_irrelevant_all_slots : forall l l',
  Forall2 same_up_to_dummy_fields l l' -> priv_compat l = priv_compat l'.
Proof. exact dummy_noninterference_compat. Qed.

Example C07_ex_hypotheses :
  (forall l, length (H0 l) = 4%nat /\ Forall canon (H0 l)) /\ Forall leaf_wf ex_leaves /\
  length ex_us = length ex_leaves /\ (1 <= length ex_leaves <= 64)%nat.
Proof. exact (conj H0_wf (conj ex_leaves_wf (conj eq_refl ex_len))). Qed.
Example C07_ex_accepts :
  priv_compat ex_leaves = true /\ hon H0 (private_batch ex_leaves ex_us) = Some (priv_output H0 ex_leaves ex_us).
Proof. exact (conj ex_compat ex_hon). Qed.
(* each clause can fail: another asset on a dummy, another fee, a repeated nullifier, an account above 2^32 *)
Example C07_ex_rejects :
  priv_compat [ex_real1; [1; 0; 0; 0; 0; 0; 0; 0; 0; 0; 0; 0; 0; 0; 0; 0; 0; 0; 0; 0; 0]] = false /\
  priv_compat [ex_real1; [0; 30; 40; 6; 15; 16; 17; 18; 21; 22; 23; 24; 51; 52; 53; 54; 41; 42; 43; 44; 7]] = false /\
  priv_compat [ex_real1; ex_real1] = false /\
  priv_compat [[0; 4294967295; 1; 5; 11; 12; 13; 14; 21; 22; 23; 24; 21; 22; 23; 24; 41; 42; 43; 44; 7]] = false /\
  hon H0 (private_batch [ex_real1; ex_real1] [[1; 1; 1; 1]; [2; 2; 2; 2]]) = None.
Proof. split; [|split; [|split; [|split; [|exact ex_dup_fails]]]]; vm_compute; reflexivity. Qed.
