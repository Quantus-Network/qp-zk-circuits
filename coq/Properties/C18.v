(* C18 - Public-batch proofs are bound to the configured aggregator address.

   "Every proof the public-batch aggregator returns verifies under the pinned public-batch verifier and exposes the
    configured aggregator address.  The aggregator's verification rejects any proof whose exposed address differs,
    even if the proof is cryptographically valid, and any proof of the wrong length."

   Model: Sys/AddressBinding.v (after wormhole/aggregator/src/aggregator.rs: ProvingContext::verify, ::prove_batch),
   tied to the implementation by harness/src/bin/loaders.rs (mode c18): a real bins directory, real proofs under
   several addresses, tampered public inputs, wrong lengths.  Proofs: Sys/AddressBindingProofs.v.

   Vocabulary: a proof [pf : P] is abstract; [pis pf] are its public inputs as canonical u64 values, [verifies pf] the
   verdict of the pinned public-batch verifier (plonky2's verify under the canonical-pinned VerifierCircuitData; the
   proof system itself is not modelled).  [exposed_address pf] = the first PUBLIC_AGGREGATOR_ADDRESS_LEN = 4 public
   inputs.  A context holds the configured address (4 limbs below the field order: a BytesDigest) and the public-input
   count of the pinned verifier.  [produce] is ANY outcome of preflight + prover construction + commit + prove. *)
From V.Base Require Import Common.
From V.Generated Require Import Constants.
From V.Sys Require Import AddressBinding AddressBindingProofs.

Lemma C18_pin_address_len : PUBLIC_AGGREGATOR_ADDRESS_LEN = 4 /\ PU_AGGREGATOR_ADDRESS_LEN = 4. Proof. split; reflexivity. Qed.
Lemma C18_pin_address_start : PU_AGGREGATOR_ADDRESS_START = 0. Proof. reflexivity. Qed.
Lemma C18_pin_header_len : PU_HEADER_LEN = 12 /\ PUBLIC_HEADER_LEN = 12. Proof. split; reflexivity. Qed.
Lemma C18_spec_exposed_address P pis (pf : P) :
  exposed_address P pis pf = firstn 4 (pis pf).
Proof. reflexivity. Qed.

(* verification accepts exactly the proofs of the expected length that expose the configured address and verify *)
Theorem C18_verify_iff :
  forall (P : Type) (pis : P -> list Z) (verifies : P -> bool) (c : ctx) (pf : P),
    length (c_addr c) = 4%nat ->
    (verify P pis verifies c pf = Ok tt <->
     zlen (pis pf) = c_expected_len c /\ exposed_address P pis pf = c_addr c /\ verifies pf = true).
Proof.
  intros P pis verifies c pf La. rewrite verify_ok_iff. split; [intros (E & _ & A & V); auto|].
  intros (E & A & V). repeat split; try assumption.
  (* the exposed address has the four limbs of the configured one, so the slice was in bounds *)
  pose proof (firstn_length 4 (pis pf)) as L. change (firstn 4 (pis pf)) with (exposed_address P pis pf) in L.
  rewrite A, La in L. unfold zlen, PUBLIC_AGGREGATOR_ADDRESS_LEN. lia.
Qed.

Theorem C18_verify_accepts_only_own_address :
  forall (P : Type) (pis : P -> list Z) (verifies : P -> bool) (c : ctx) (pf : P) (u : unit),
    verify P pis verifies c pf = Ok u ->
    zlen (pis pf) = c_expected_len c /\ exposed_address P pis pf = c_addr c /\ verifies pf = true.
Proof. intros P pis verifies c pf u H. apply verify_ok_iff in H as (E & _ & A & V). auto. Qed.

(* a different exposed address is rejected - with the address error, whatever the cryptographic verdict is *)
Theorem C18_other_address_rejected_even_if_valid :
  forall (P : Type) (pis : P -> list Z) (verifies : P -> bool) (c : ctx) (pf : P),
    4 <= c_expected_len c -> zlen (pis pf) = c_expected_len c ->
    exposed_address P pis pf <> c_addr c ->
    verify P pis verifies c pf = Err E_ADDR.
Proof.
  intros P pis verifies c pf Hx E N. rewrite verify_eq, guard_bind_true by (apply Z.eqb_eq, E).
  rewrite guard_bind_true by (apply Z.leb_le; unfold PUBLIC_AGGREGATOR_ADDRESS_LEN; lia).
  apply guard_bind_false, list_eqb_false, N.
Qed.

Theorem C18_wrong_length_rejected :
  forall (P : Type) (pis : P -> list Z) (verifies : P -> bool) (c : ctx) (pf : P),
    zlen (pis pf) <> c_expected_len c -> verify P pis verifies c pf = Err E_LEN.
Proof. intros P pis verifies c pf N. rewrite verify_eq. apply guard_bind_false, Z.eqb_neq, N. Qed.

(* the slice of the first four public inputs cannot go out of bounds (the header alone has 12 felts) *)
Theorem C18_verify_total :
  forall (P : Type) (pis : P -> list Z) (verifies : P -> bool) (c : ctx) (pf : P),
    4 <= c_expected_len c -> verify P pis verifies c pf <> Err PANIC.
Proof.
  intros P pis verifies c pf Hx. rewrite verify_eq.
  destruct (Z.eqb_spec (zlen (pis pf)) (c_expected_len c)) as [E|]; [cbn [guard rbind]|discriminate].
  rewrite guard_bind_true by (apply Z.leb_le; unfold PUBLIC_AGGREGATOR_ADDRESS_LEN; lia).
  destruct (list_eqb _ _); [cbn [guard rbind]|discriminate]. destruct (verifies pf); discriminate.
Qed.

(* whatever prove_batch returns passed the aggregator's own verification: it verifies under the pinned verifier and
   exposes the configured address *)
Theorem C18_prove_batch_returns_verified :
  forall (P : Type) (pis : P -> list Z) (verifies : P -> bool) (c : ctx) (produce : res P) (pf : P),
    prove_batch P pis verifies c produce = Ok pf ->
    produce = Ok pf /\
    verifies pf = true /\ exposed_address P pis pf = c_addr c /\ zlen (pis pf) = c_expected_len c.
Proof.
  intros P pis verifies c produce pf H. apply prove_batch_iff in H as [H1 H2]. apply verify_ok_iff in H2 as (E & _ & A & V). auto.
Qed.

Theorem C18_prove_batch_iff :
  forall (P : Type) (pis : P -> list Z) (verifies : P -> bool) (c : ctx) (produce : res P) (pf : P),
    prove_batch P pis verifies c produce = Ok pf <-> produce = Ok pf /\ verify P pis verifies c pf = Ok tt.
Proof. intros. apply prove_batch_iff. Qed.

(* proofs = (public inputs, verdict) *)
Example C18_ex_accept :
  verify (list Z * bool) fst snd (mkCtx [1; 2; 3; 4] 14) ([1; 2; 3; 4; 0; 10; 5; 6; 7; 8; 9; 2; 0; 0], true) = Ok tt.
Proof. reflexivity. Qed.
Example C18_ex_valid_but_other_address :
  verify (list Z * bool) fst snd (mkCtx [1; 2; 3; 5] 14) ([1; 2; 3; 4; 0; 10; 5; 6; 7; 8; 9; 2; 0; 0], true) = Err E_ADDR.
Proof. reflexivity. Qed.
Example C18_ex_wrong_length :
  verify (list Z * bool) fst snd (mkCtx [1; 2; 3; 4] 14) ([1; 2; 3; 4; 0; 10; 5; 6; 7; 8; 9; 2; 0], true) = Err E_LEN.
Proof. reflexivity. Qed.
Example C18_ex_invalid :
  verify (list Z * bool) fst snd (mkCtx [1; 2; 3; 4] 14) ([1; 2; 3; 4; 0; 10; 5; 6; 7; 8; 9; 2; 0; 0], false) = Err E_VERIFY.
Proof. reflexivity. Qed.
Example C18_ex_prove_batch_withholds :
  prove_batch (list Z * bool) fst snd (mkCtx [1; 2; 3; 5] 14) (Ok ([1; 2; 3; 4; 0; 10; 5; 6; 7; 8; 9; 2; 0; 0], true)) = Err E_ADDR.
Proof. reflexivity. Qed.
