(* C21 - Pooled proofs leave only by settlement, expiry or explicit removal; snapshots.
   Model: Sys/Pool.v (incl. the public-batch preflight); proofs: Sys/PoolProofs.v. *)
From V.Base Require Import Common.
From V.Sys Require Import Pool PoolProofs.

(* a pooled proof disappears in a step only if the step is a settlement containing one of its
   nullifiers, an expiry with the proof older than the cutoff, or the removal of its bucket - which
   returns it *)
Theorem C21_leaves_only_by : forall cfg st o e,
  Inv cfg st -> In e (pooled st) -> ~ In e (pooled (fst (step cfg st o))) ->
  (exists S n, o = EvictSettled S /\ In n (e_nulls e) /\ In n S)
  \/ (exists a, o = EvictOlder a /\ sat_sub (s_now st) (e_at e) > a)
  \/ (exists k l, o = RemoveBucket k /\ In (k, e) (keyed_entries (s_buckets st))
                  /\ o_ret (snd (step cfg st o)) = RRemoved l /\ In (e_proof e) l).
Proof.
  intros cfg st o e Hi Hin Hni. destruct o as [pr|S|a|k|k|dt|]; cbn [step] in Hni; rewrite ?let_pair in Hni; cbn [fst] in Hni.
  - destruct Hni. destruct (push_spec cfg st pr) as [| | |k nulls vol _ _ _ _ _]; try exact Hin.
    apply pooled_in in Hin. destruct Hin as [k' H]. apply pooled_in. exists k'. apply add_entry_keyed_in. right. exact H.
  - left. rewrite (proj1 (evict_settled_exact cfg st S Hi)) in Hni.
    apply (not_in_filter _ _ _ Hin), negb_false_iff, stale_spec in Hni. destruct Hni as (n & H1 & H2). eauto.
  - right. left. rewrite (proj1 (evict_older_exact st a)) in Hni.
    apply (not_in_filter _ _ _ Hin), negb_false_iff, expired_spec in Hni. eauto.
  - destruct Hni. destruct (snapshot_frame cfg st k) as (bs & -> & E). unfold pooled. cbn [set_buckets s_buckets].
    rewrite all_entries_keyed, (content_keyed _ _ E), <- all_entries_keyed. exact Hin.
  - right. right. apply pooled_in in Hin. destruct Hin as [k' Hk].
    assert (Hni' : ~ In (k', e) (keyed_entries (s_buckets (fst (remove_bucket st k))))).
    { intro H. apply Hni, pooled_in. eauto. }
    rewrite (remove_bucket_keyed st k (inv_keys _ _ Hi)) in Hni'.
    apply (not_in_filter _ _ _ Hk), negb_false_iff, list_eqb_spec in Hni'. cbn [fst] in Hni'. subst k'.
    exists k, (map e_proof (bucket_entries k (s_buckets st))). split; [reflexivity|]. split; [exact Hk|].
    cbn [step]. rewrite (remove_bucket_retain st k (inv_keys _ _ Hi)). split; [reflexivity|].
    apply in_map, bucket_entries_in, Hk.
  - contradiction.
  - contradiction.
Qed.

(* each of those operations removes exactly the proofs it targets (order of the rest preserved) and
   reports their number; the state after it satisfies the invariant again (C20), so the index lost
   exactly their nullifiers *)
Theorem C21_evict_exact : forall cfg st,
  Inv cfg st ->
  (forall S,
     pooled (fst (step cfg st (EvictSettled S))) = filter (fun e => negb (stale S e)) (pooled st)
     /\ o_ret (snd (step cfg st (EvictSettled S))) = RCount (zlen (filter (stale S) (pooled st))))
  /\ (forall a,
     pooled (fst (step cfg st (EvictOlder a))) = filter (fun e => negb (expired (s_now st) a e)) (pooled st)
     /\ o_ret (snd (step cfg st (EvictOlder a))) = RCount (zlen (filter (expired (s_now st) a) (pooled st))))
  /\ (forall k,
     keyed_entries (s_buckets (fst (step cfg st (RemoveBucket k))))
       = filter (fun ke => negb (list_eqb (fst ke) k)) (keyed_entries (s_buckets st))
     /\ o_ret (snd (step cfg st (RemoveBucket k))) = RRemoved (map e_proof (bucket_entries k (s_buckets st)))).
Proof.
  intros cfg st Hi. split; [|split].
  - intro S. destruct (evict_settled_exact cfg st S Hi) as [H1 H2].
    split; [exact H1|exact (f_equal (fun l => RCount (zlen l)) H2)].
  - intro a. destruct (evict_older_exact st a) as [H1 H2].
    split; [exact H1|exact (f_equal (fun l => RCount (zlen l)) H2)].
  - intro k. cbn [step]. rewrite let_pair. split; [exact (remove_bucket_keyed st k (inv_keys _ _ Hi))|].
    rewrite (remove_bucket_retain st k (inv_keys _ _ Hi)). reflexivity.
Qed.

Theorem C21_stale_expired_meaning : forall S now a e,
  (stale S e = true <-> exists n, In n (e_nulls e) /\ In n S)
  /\ (expired now a e = true <-> sat_sub now (e_at e) > a).
Proof. intros. split; [apply stale_spec|apply expired_spec]. Qed.

(* snapshots remove nothing and return the first min(count, batch size) proofs of the bucket in
   admission order ([bucket_entries] lists a key's pooled proofs in that order) *)
Theorem C21_snapshot : forall cfg st k,
  Inv cfg st ->
  keyed_entries (s_buckets (fst (step cfg st (Snapshot k)))) = keyed_entries (s_buckets st)
  /\ s_index (fst (step cfg st (Snapshot k))) = s_index st
  /\ (bucket_entries k (s_buckets st) = [] -> o_ret (snd (step cfg st (Snapshot k))) = RSnap None)
  /\ (bucket_entries k (s_buckets st) <> [] ->
      o_ret (snd (step cfg st (Snapshot k)))
      = RSnap (Some (map e_proof (firstn (Z.to_nat (Z.min (zlen (bucket_entries k (s_buckets st))) (c_batch cfg)))
                                         (bucket_entries k (s_buckets st)))))).
Proof.
  intros cfg st k Hi. cbn [step]. rewrite let_pair. cbn [fst snd quiet o_ret]. rewrite (snapshot_ret cfg st k Hi).
  destruct (snapshot_frame cfg st k) as (bs & -> & E). split; [exact (content_keyed _ _ E)|]. split; [reflexivity|].
  split; [intros ->; reflexivity|]. destruct (bucket_entries k (s_buckets st)); [contradiction|reflexivity].
Qed.

(* every snapshot of a state satisfying the invariant is a batch the public-batch preflight accepts *)
Theorem C21_snapshot_preflight_ok : forall cfg st k ps,
  wf_cfg cfg -> Inv cfg st ->
  o_ret (snd (step cfg st (Snapshot k))) = RSnap (Some ps) -> preflight cfg ps = Ok tt.
Proof.
  intros cfg st k ps W Hi H. cbn [step] in H. rewrite let_pair in H. cbn [snd quiet o_ret] in H.
  rewrite (snapshot_ret cfg st k Hi) in H.
  assert (Hall : forall e, In e (bucket_entries k (s_buckets st)) -> entry_ok cfg (k, e)).
  { intros e He. apply bucket_entries_in in He. exact (inv_entry_in cfg st k e Hi He). }
  destruct (bucket_entries k (s_buckets st)); [discriminate|]. inversion H.
  apply (preflight_bucket_ok cfg k); [discriminate|apply (wf_batch cfg W)|exact Hall].
Qed.

(* non-vacuity: snapshots before, between and after evictions *)
Definition ex_pis (bh0 null0 : Z) : list Z :=
  [2; 0; 10; bh0; 0; 0; 0; 77; 100; 0; 0; 0; 0; 50; 0; 0; 0; 0; null0; 0; 0; 0] ++ repeat 0 7.
Definition ex_cfg : config := mkConfig 4 2 2 8 1000 1 29.
Definition K1 : key := [1; 0; 0; 0; 0; 10].
Definition ex_history : list op :=
  [ Push (mkProof (ex_pis 1 11) true); Advance 10; Push (mkProof (ex_pis 1 12) true);
    Push (mkProof (ex_pis 1 13) true); Push (mkProof (ex_pis 2 14) true);
    Snapshot K1;                                  (* the two oldest of three *)
    EvictSettled [[11; 0; 0; 0]; [99; 0; 0; 0]];  (* removes one *)
    Snapshot K1;
    Advance 5; EvictOlder 10;                     (* nothing is older than 10 *)
    EvictOlder 4;                                 (* everything is *)
    Snapshot K1 ].
Example C21_example :
  map (fun o => match o_ret o with
                | RSnap (Some ps) => map (fun pr => nth 18 (p_pis pr) 0) ps
                | RCount n => [n]
                | _ => [] end) (snd (run ex_cfg (init 0) ex_history))
  = [ []; []; []; []; []; [11; 12]; [1]; [12; 13]; []; [0]; [3]; [] ].
Proof. vm_compute. reflexivity. Qed.
Example C21_example_preflight_rejects :
  preflight ex_cfg [] = Err PF_EMPTY
  /\ preflight ex_cfg [mkProof (ex_pis 1 11) true; mkProof (ex_pis 2 12) true] = Err PF_BLOCK
  /\ preflight ex_cfg [mkProof (ex_pis 1 11) false] = Err PF_VERIFY
  /\ preflight ex_cfg [mkProof (ex_pis 0 11) true] = Err PF_ALL_DUMMY
  /\ preflight ex_cfg [mkProof (ex_pis 1 11) true; mkProof (ex_pis 1 12) true; mkProof (ex_pis 1 13) true] = Err PF_TOO_MANY
  /\ preflight ex_cfg [mkProof (ex_pis 1 11) true; mkProof (ex_pis 0 12) true] = Ok tt.
Proof. vm_compute. repeat split; reflexivity. Qed.

(* "the oldest": no proof left behind by a snapshot (or by any prefix of the bucket) was admitted
   earlier than a returned one; [TimeInv] holds after every history (C20_admission_order_reachable) *)
Theorem C21_snapshot_oldest : forall cfg st k n e1 e2,
  Inv cfg st -> TimeInv st ->
  In e1 (firstn n (bucket_entries k (s_buckets st))) -> In e2 (skipn n (bucket_entries k (s_buckets st))) ->
  e_at e1 <= e_at e2.
Proof.
  intros cfg st k n e1 e2 Hi T H1 H2. pose proof (bucket_entries_times cfg st k Hi T) as Hs.
  rewrite <- (firstn_skipn n (bucket_entries k (s_buckets st))), map_app in Hs.
  exact (nondecr_app_le _ _ _ _ _ Hs (in_map e_at _ _ H1) (in_map e_at _ _ H2)).
Qed.
