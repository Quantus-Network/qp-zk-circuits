(* C36 - Two-layer composition.

   "When real private batches are aggregated into a public batch, the public output's non-zero exit
   slots sum to the total of the real leaves' output amounts.  Its non-zero nullifiers are exactly the
   real leaves' nullifiers together with the dummy-slot replacement nullifiers of the real private
   batches.  Padding inners add nothing."

   Stated over the specification functions of Spec/LeanPort.v: the inner statements are
   [priv_output H leaves us] (what private_batch_spec proves the private wrapper outputs) and the outer
   statement is [pub_output n address inners] (what C12 / public_batch_spec proves the public wrapper
   outputs).  Proofs: Circ/TwoLayer.v.
     group            = (leaves of one private batch, its dummy-nullifier preimages)
     inner_of H g     = priv_output H (fst g) (snd g)
     group_ok n g     = n leaves, one preimage per leaf, every leaf leaf_wf, every grouped sum < 2^32
     batch_real ls    = some leaf of ls has a non-zero block hash
     amounts5 / chunk4 / zsum / nonzero4   reading a region back as slot sums / digests *)
From Coq Require Import Permutation.
From V.Base Require Import Common.
From V.Generated Require Import Constants.
From V.Circ Require Import Field Sorting PrivateBatch PrivateBatchProofs PublicBatchProofs TwoLayer.
From V.Spec Require Import LeanPort.

Lemma C36_pin_layout :
  [PR_LEAF_PI_LEN; PR_OUT_HEADER_LEN; PR_OUT_EXIT_SLOT_LEN; PR_OUT_BLOCK_HASH_OFFSET; PU_HEADER_LEN] = [21; 8; 5; 3; 12].
Proof. reflexivity. Qed.
Lemma C36_pin_leaf_offsets :
  [PR_ASSET_ID_START; PR_OUTPUT_AMOUNT_1_START; PR_OUTPUT_AMOUNT_2_START; PR_VOLUME_FEE_BPS_START;
   PR_NULLIFIER_START; PR_EXIT_1_START; PR_EXIT_2_START; PR_BLOCK_HASH_START; PR_BLOCK_NUMBER_START]
  = [0; 1; 2; 3; 4; 8; 12; 16; 20].
Proof. reflexivity. Qed.

Lemma C36_spec_group_ok : forall n (g : group),
  group_ok n g <->
  zlen (fst g) = n /\ length (snd g) = length (fst g) /\ Forall leaf_wf (fst g) /\
  forallb (fun s => fst s <? two32) (groupExits (maskedChildPairs (fst g))) = true.
Proof. reflexivity. Qed.
Lemma C36_spec_batch_real : forall leaves,
  batch_real leaves = existsb (fun q => negb (list_eqb (lf_bh q) [0; 0; 0; 0])) leaves.
Proof. reflexivity. Qed.
Lemma C36_spec_H_shape : forall H, H_shape H <-> forall l, length (H l) = 4%nat /\ Forall canon (H l).
Proof. reflexivity. Qed.
Lemma C36_spec_readback : forall a b c d e (r : list Z),
  amounts5 (a :: b :: c :: d :: e :: r) = a :: amounts5 r /\ amounts5 [] = [] /\
  chunk4 (a :: b :: c :: d :: r) = [a; b; c; d] :: chunk4 r /\ chunk4 [] = [] /\
  zsum (a :: r) = a + zsum r /\ zsum [] = 0 /\ nonzero4 r = negb (list_eqb r [0; 0; 0; 0]).
Proof. intros. repeat split; reflexivity. Qed.
(* every accepted private batch satisfies the sum bound of group_ok *)
Theorem C36_accepted_batches_qualify : forall leaves, priv_compat leaves = true -> sums_ok leaves.
Proof. exact priv_compat_sums_ok. Qed.

Theorem C36_inner_wf :
  forall (H : list Z -> list Z), H_shape H -> forall n, 2 * n < p ->
  forall g : group, group_ok n g -> inner_wf n (inner_of H g).
Proof. intros H HH n Hp g. apply inner_of_wf; assumption. Qed.

(* a private batch is forwarded as "real" exactly when it contains a real leaf *)
Theorem C36_inner_real_iff :
  forall (H : list Z -> list Z) n (g : group), H_shape H -> group_ok n g ->
    is_dummy_inner (inner_of H g) = negb (batch_real (fst g)).
Proof. intros H n g _ (_ & _ & W & _). apply inner_dummy_iff, W. Qed.

(* conservation inside one private batch *)
Theorem C36_conservation :
  forall leaves, slotsTotal (groupExits (maskedChildPairs leaves)) = inputExitTotal leaves.
Proof. exact conservation. Qed.

(* the 2NM slot sums of the public output (felts 12 + 5k) add up to the real leaves' output amounts;
   all-dummy private batches contribute 0, so the sum may be taken over all groups or over the real ones *)
Theorem C36_value :
  forall (H : list Z -> list Z) n address (groups : list group),
    H_shape H -> 1 <= n -> 2 * n < p -> length address = 4%nat -> Forall (group_ok n) groups ->
    let out := pub_output n address (map (inner_of H) groups) in
    zsum (map (fun k => nth (12 + 5 * k) out 0) (seq 0 (Z.to_nat (2 * n * zlen groups))))
    = zsum (map (fun g => inputExitTotal (fst g)) groups) /\
    zsum (map (fun k => nth (12 + 5 * k) out 0) (seq 0 (Z.to_nat (2 * n * zlen groups))))
    = zsum (map (fun g => inputExitTotal (fst g)) (filter (fun g => batch_real (fst g)) groups)).
Proof.
  intros H n address groups HH Hn Hp La F out. unfold out.
  rewrite (two_layer_value_felts H n address groups HH Hn Hp La F). split; [reflexivity|apply total_real_only].
Qed.

Theorem C36_nullifiers :
  forall (H : list Z -> list Z), H_shape H -> forall n, 1 <= n -> 2 * n < p ->
  forall address (groups : list group), length address = 4%nat -> Forall (group_ok n) groups ->
    let out := pub_output n address (map (inner_of H) groups) in
    let M := zlen groups in
    region out (12 + 10 * n * M) (4 * n * M)
    = concat (map (fun g => if batch_real (fst g)
                            then concat (sort_spec (selected_nullifiers H (fst g) (snd g)))
                            else repeat 0 (Z.to_nat (4 * n))) groups) /\
    (Forall (fun g => batch_real (fst g) = true ->
                      Forall (fun d => d <> zero4) (selected_nullifiers H (fst g) (snd g))) groups ->
     Permutation (filter nonzero4 (chunk4 (region out (12 + 10 * n * M) (4 * n * M))))
                 (concat (map (fun g => selected_nullifiers H (fst g) (snd g))
                              (filter (fun g => batch_real (fst g)) groups)))).
Proof.
  intros H HH n Hn Hp address groups La F out M. unfold out, M.
  rewrite (two_layer_null_region H HH n address groups Hn Hp La F).
  split; [reflexivity|exact (nonzero_nullifiers H HH n groups F)].
Qed.

(* appending inners with a zero block hash (any other content): acceptance and the header references are
   unchanged, the slot count grows by 2NK, each region only gets zeros appended, hence the same total
   and the same non-zero nullifiers *)
Theorem C36_padding_adds_nothing :
  forall n address inners pads,
    1 <= n -> Forall (inner_wf n) inners -> Forall (fun d => is_dummy_inner d = true) pads ->
    let K := length pads in
    pub_compat (inners ++ pads) = pub_compat inners /\
    pub_ref (inners ++ pads) = pub_ref inners /\
    pub_header n address (inners ++ pads) =
      (let '(a, f, bh, bn) := pub_ref inners in address ++ [a; f] ++ bh ++ [bn; 2 * n * (zlen inners + Z.of_nat K)]) /\
    pub_output n address (inners ++ pads) =
      pub_header n address (inners ++ pads)
      ++ (pub_exits n inners ++ repeat 0 (K * Z.to_nat (10 * n)))
      ++ (pub_nulls n inners ++ repeat 0 (K * Z.to_nat (4 * n))) /\
    zsum (amounts5 (pub_exits n (inners ++ pads))) = zsum (amounts5 (pub_exits n inners)) /\
    filter nonzero4 (chunk4 (pub_nulls n (inners ++ pads))) = filter nonzero4 (chunk4 (pub_nulls n inners)).
Proof.
  intros n address inners pads Hn F D K.
  split; [apply pub_compat_padding, D|]. split; [apply pub_ref_padding, D|].
  split; [unfold pub_header; rewrite (pub_ref_padding inners pads D), zlen_app; reflexivity|].
  split; [rewrite pub_output_split, pub_exits_padding, pub_nulls_padding by exact D; reflexivity|].
  exact (padding_adds_nothing n inners pads Hn F D).
Qed.
Lemma C36_spec_output_parts : forall n address inners,
  pub_output n address inners = pub_header n address inners ++ pub_exits n inners ++ pub_nulls n inners /\
  pub_exits n inners = concat (map (fun q => fwd_region q 8 (10 * n)) inners) /\
  pub_nulls n inners = concat (map (fun q => fwd_region q (8 + 10 * n) (4 * n)) inners).
Proof. intros. exact (conj (pub_output_split n address inners) (conj eq_refl eq_refl)). Qed.

(* non-vacuity: N = 2, M = 3 *)
Example C36_ex_H (l : list Z) : list Z := [1 + (fold_left Z.add l 0) mod 1000; 2; 3; 4].
Example C36_ex_H_shape : H_shape C36_ex_H.
Proof. exact H0_wf. Qed.
Example C36_ex_leaf (o1 o2 : Z) (null e1 e2 bh : list Z) : list Z := [7; o1; o2; 25] ++ null ++ e1 ++ e2 ++ bh ++ [77].
Example C36_ex_bh : list Z := [11; 12; 13; 14].
(* group 1: two real leaves, three of the four exits to the same account;
   group 2: one real leaf and one dummy leaf (its nullifier is replaced by H(H(u)));
   group 3: all dummy (a padding private batch) *)
Example C36_ex_groups : list group :=
  [([C36_ex_leaf 100 20 [1; 1; 1; 1] [5; 5; 5; 5] [6; 6; 6; 6] C36_ex_bh;
     C36_ex_leaf 3 4000 [2; 2; 2; 2] [5; 5; 5; 5] [5; 5; 5; 5] C36_ex_bh], [[9; 9; 9; 9]; [8; 8; 8; 8]]);
   ([C36_ex_leaf 50 60 [3; 3; 3; 3] [6; 6; 6; 6] [7; 7; 7; 7] C36_ex_bh;
     C36_ex_leaf 999 999 [4; 4; 4; 4] [6; 6; 6; 6] [7; 7; 7; 7] [0; 0; 0; 0]], [[9; 9; 9; 9]; [8; 8; 8; 8]]);
   ([C36_ex_leaf 999 999 [4; 4; 4; 4] [6; 6; 6; 6] [7; 7; 7; 7] [0; 0; 0; 0];
     C36_ex_leaf 1 1 [4; 4; 4; 4] [6; 6; 6; 6] [7; 7; 7; 7] [0; 0; 0; 0]], [[1; 2; 3; 4]; [5; 6; 7; 8]])].
Example C36_ex_hypotheses :
  Forall (group_ok 2) C36_ex_groups /\
  Forall (fun g => priv_compat (fst g) = true) C36_ex_groups /\
  map (fun g => batch_real (fst g)) C36_ex_groups = [true; true; false] /\
  pub_compat (map (inner_of C36_ex_H) C36_ex_groups) = true /\
  Forall (fun g => batch_real (fst g) = true ->
                   Forall (fun d => d <> zero4) (selected_nullifiers C36_ex_H (fst g) (snd g))) C36_ex_groups.
Proof.
  split; [apply groups_okb_spec; vm_compute; reflexivity|].
  split; [apply (forallb_Forall (fun g : group => priv_compat (fst g))); vm_compute; reflexivity|].
  split; [vm_compute; reflexivity|]. split; [vm_compute; reflexivity|].
  apply nonzero_premise_b. vm_compute. reflexivity.
Qed.
Example C36_ex_value :
  let out := pub_output 2 [101; 102; 103; 104] (map (inner_of C36_ex_H) C36_ex_groups) in
  map (fun k => nth (12 + 5 * k) out 0) (seq 0 12) = [4103; 20; 0; 0; 50; 60; 0; 0; 0; 0; 0; 0] /\
  zsum (map (fun g => inputExitTotal (fst g)) C36_ex_groups) = 100 + 20 + 3 + 4000 + 50 + 60.
Proof. vm_compute. split; reflexivity. Qed.
Example C36_ex_nullifiers :
  let out := pub_output 2 [101; 102; 103; 104] (map (inner_of C36_ex_H) C36_ex_groups) in
  filter nonzero4 (chunk4 (region out (12 + 10 * 2 * 3) (4 * 2 * 3)))
  = [[1; 1; 1; 1]; [2; 2; 2; 2]; [3; 3; 3; 3]; C36_ex_H (C36_ex_H [8; 8; 8; 8])].
Proof. vm_compute. reflexivity. Qed.
