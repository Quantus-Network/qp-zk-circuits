(* C23 - artifact publication is atomic under failures and crashes.

   Model: V.Sys.Publish (commit_staging_dir_impl / generate_all_circuit_binaries of
   wormhole/circuit-builder/src/lib.rs over an abstract file system {output, staging, aside} x
   {Absent, Prev, New, File, PartPrev, PartNew}).  Fault vectors are arbitrary lists: one [rfault] per
   rename (normal / Err / die before / die after), one [mfault] per remove_dir_all (normal / Err /
   Err after a partial removal / die before / die half-way / die after), consumed in program order.
   [o] ranges over the three initial states of the property text: no output ([Absent]), an output
   directory holding the previous set ([Prev]), an output file ([File]). *)
From V.Base Require Import Common.
From V.Sys Require Import Publish PublishProofs.

(* The bound is derived, not assumed: no run makes more than 3 rename calls, and an arbitrary fault
   vector behaves exactly like its first 3 rename faults and first remove fault. *)
Theorem C23_fault_bound :
  forall (o : content) (rf : list rfault) (mf : list mfault),
    o = Absent \/ o = Prev \/ o = File ->
    run_publish o rf mf = run_publish o (firstn 3 rf) (firstn 1 mf) /\
    (renames_used (run_publish o rf mf) <= 3)%nat.
Proof.
  intros o rf mf Ho. split; [|apply Nat.leb_le, (publish_checked o rf mf Ho)].
  rewrite (run_publish_norm o rf mf Ho), (run_publish_norm o (firstn 3 rf) (firstn 1 mf) Ho). f_equal.
  - destruct rf as [|a [|b [|c rest]]]; reflexivity.
  - destruct mf as [|m rest]; reflexivity.
Qed.

(* Publishing a complete staged set, every initial state, EVERY fault vector; [s] is the file system
   when the process returned or died.
   (a) the output path holds what it held before, or the complete new set, or nothing - never a mix;
   (b) if the previous contents are no longer at the output path, the new set is there, or both the
       previous set (aside path) and the new set (staging path) survive on disk;
   (c) Ok is reported only with the new set live, Err only with the new set not live. *)
Theorem C23_publish_safe :
  forall (o : content) (rf : list rfault) (mf : list mfault),
    o = Absent \/ o = Prev \/ o = File ->
    let r := run_publish o rf mf in
    let s := o_fs r in
    (f_out s = o \/ f_out s = New \/ f_out s = Absent) /\
    (f_out s <> o -> f_out s = New \/ (f_old s = o /\ f_stg s = New)) /\
    (o_verdict r = VOk -> f_out s = New) /\
    (o_verdict r = VErr -> f_out s <> New).
Proof. intros o rf mf Ho. apply out_safe_b_ok, (publish_checked o rf mf Ho). Qed.

(* "never a mix": an incomplete set (the only non-atomic operation is remove_dir_all) is never at the
   output path *)
Theorem C23_no_partial_output :
  forall (o : content) (rf : list rfault) (mf : list mfault),
    o = Absent \/ o = Prev \/ o = File ->
    f_out (o_fs (run_publish o rf mf)) <> PartPrev /\ f_out (o_fs (run_publish o rf mf)) <> PartNew.
Proof.
  intros o rf mf Ho. destruct (C23_publish_safe o rf mf Ho) as [Ha _].
  destruct Ho as [H|[H|H]]; subst o; split; intro E; rewrite E in Ha;
    destruct Ha as [Ha|[Ha|Ha]]; discriminate Ha.
Qed.

(* the staged set is discarded only when the output path holds its previous contents again (rollback,
   refused output file, failed move-aside); a first publication never loses the only copy *)
Theorem C23_new_set_not_lost :
  forall (o : content) (rf : list rfault) (mf : list mfault),
    o = Absent \/ o = Prev \/ o = File ->
    let s := o_fs (run_publish o rf mf) in
    f_out s = New \/ f_stg s = New \/ (o <> Absent /\ f_out s = o).
Proof.
  intros o rf mf Ho. cbv zeta. destruct (publish_checked o rf mf Ho) as (_ & _ & H). revert H. unfold kept_b. cbv zeta.
  rewrite !orb_true_iff, andb_true_iff, negb_true_iff, <- not_true_iff_false, !ceqb_eq. tauto.
Qed.

(* "success is reported iff the new set is live", for every run in which the process lives to report *)
Theorem C23_success_iff_live :
  forall (o : content) (rf : list rfault) (mf : list mfault),
    o = Absent \/ o = Prev \/ o = File ->
    o_verdict (run_publish o rf mf) <> VCrashed ->
    (o_verdict (run_publish o rf mf) = VOk <-> f_out (o_fs (run_publish o rf mf)) = New).
Proof.
  intros o rf mf Ho Hc. destruct (C23_publish_safe o rf mf Ho) as [_ [_ [Hok Herr]]].
  split; [exact Hok|]. intro Hn.
  destruct (o_verdict (run_publish o rf mf)); [reflexivity| |congruence].
  exfalso. apply Herr; [reflexivity|exact Hn].
Qed.

(* ... and only for those: dying right after the swap-in leaves the new set live, nothing reported *)
Theorem C23_success_iff_live_crash_refuted :
  exists o rf, (o = Absent \/ o = Prev \/ o = File) /\
    o_verdict (run_publish o rf []) = VCrashed /\ f_out (o_fs (run_publish o rf [])) = New.
Proof. exists Prev, [ROk; RCrashAfter]. split; [right; left; reflexivity|]. split; reflexivity. Qed.

(* A failed generation (configuration rejected, staging directory not created, generation closure
   failed): Err-or-death but never Ok, output untouched, nothing moved; the staging directory is gone
   whenever its removal works. *)
Theorem C23_failed_generation :
  forall (o : content) (g : gen_outcome) (rf : list rfault) (mf : list mfault),
    g = GInvalidConfig \/ g = GStagingFail \/ g = GFail ->
    let r := run_generate o g rf mf in
    f_out (o_fs r) = o /\ f_old (o_fs r) = Absent /\ o_verdict r <> VOk /\ o_trace r = [] /\
    (f_stg (o_fs r) = Absent \/ f_stg (o_fs r) = PartNew) /\
    (match mf with [] => True | m :: _ => m = MOk end -> o_verdict r = VErr /\ f_stg (o_fs r) = Absent).
Proof.
  intros o g rf mf [H|[H|H]]; subst g; cbv zeta.
  - cbn. repeat split; auto; discriminate.
  - cbn. repeat split; auto; discriminate.
  - destruct mf as [|m rest]; [|destruct m]; cbn;
      (repeat split; auto; try discriminate; intro W; inversion W).
Qed.

(* without that proviso "no staging directory behind" is false: the partial stage stays when
   remove_dir_all itself fails (its result is discarded by the code) *)
Theorem C23_failed_generation_staging_refuted :
  exists o mf, (o = Absent \/ o = Prev \/ o = File) /\
    o_verdict (run_generate o GFail [] mf) = VErr /\ f_stg (o_fs (run_generate o GFail [] mf)) <> Absent.
Proof. exists Prev, [MFail]. split; [right; left; reflexivity|]. split; [reflexivity|discriminate]. Qed.

(* the generation dying leaves the output untouched as well *)
Theorem C23_crashed_generation :
  forall (o : content) (rf : list rfault) (mf : list mfault),
    let r := run_generate o GCrash rf mf in
    f_out (o_fs r) = o /\ f_old (o_fs r) = Absent /\ o_verdict r = VCrashed /\ o_trace r = [].
Proof. cbn. auto. Qed.

(* the whole entry point (stage, then commit) satisfies (a)-(c) for every generation outcome *)
Theorem C23_generate_safe :
  forall (o : content) (g : gen_outcome) (rf : list rfault) (mf : list mfault),
    o = Absent \/ o = Prev \/ o = File ->
    let r := run_generate o g rf mf in
    let s := o_fs r in
    (f_out s = o \/ f_out s = New \/ f_out s = Absent) /\
    (f_out s <> o -> f_out s = New \/ (f_old s = o /\ f_stg s = New)) /\
    (o_verdict r = VOk -> f_out s = New) /\
    (o_verdict r = VErr -> f_out s <> New).
Proof.
  intros o g rf mf Ho.
  assert (Hg : g = GOk \/ g = GCrash \/ g = GInvalidConfig \/ g = GStagingFail \/ g = GFail) by (destruct g; auto 6).
  destruct Hg as [->|[->|Hg]].
  - rewrite generate_ok_is_publish. exact (C23_publish_safe o rf mf Ho).
  - destruct (C23_crashed_generation o rf mf) as (H1 & _ & H3 & _). apply untouched_safe; [exact Ho|exact H1|].
    rewrite H3. discriminate.
  - destruct (C23_failed_generation o g rf mf Hg) as (H1 & _ & H3 & _). apply untouched_safe; assumption.
Qed.

(* a staging path that is not a directory is refused with nothing touched *)
Theorem C23_rejects_non_directory_staging :
  forall (o s0 : content) (rf : list rfault) (mf : list mfault),
    s0 = Absent \/ s0 = File ->
    run_commit o s0 rf mf = mkObs VErr (mkFs o s0 Absent) [].
Proof. intros o s0 rf mf [H|H]; subst s0; reflexivity. Qed.


(* a successful publish over a previous set: moved aside, swapped in, old copy removed *)
Example C23_ex_success :
  run_publish Prev [] [] = mkObs VOk (mkFs New Absent Absent) [(Out, Old); (Stg, Out)].
Proof. reflexivity. Qed.

(* failed swap-in: the previous set is rolled back, the redundant staged copy discarded; 3 renames (the bound is tight) *)
Example C23_ex_rollback :
  run_publish Prev [ROk; RFail] [] = mkObs VErr (mkFs Prev Absent Absent) [(Out, Old); (Stg, Out); (Old, Out)].
Proof. reflexivity. Qed.

(* failed swap-in and failed rollback: output empty, both copies on disk *)
Example C23_ex_double_fault :
  run_publish Prev [ROk; RFail; RFail] [] = mkObs VErr (mkFs Absent New Prev) [(Out, Old); (Stg, Out); (Old, Out)].
Proof. reflexivity. Qed.

(* the process dies between move-aside and swap-in *)
Example C23_ex_crash_between :
  run_publish Prev [RCrashAfter] [] = mkObs VCrashed (mkFs Absent New Prev) [(Out, Old)].
Proof. reflexivity. Qed.

(* the cleanup of the old copy dies half-way after a successful swap: new set live, incomplete old copy aside *)
Example C23_ex_cleanup_crash :
  run_publish Prev [] [MCrashPartial] = mkObs VCrashed (mkFs New Absent PartPrev) [(Out, Old); (Stg, Out)].
Proof. reflexivity. Qed.

(* an output *file* is rejected, left untouched, and the staged copy discarded *)
Example C23_ex_output_file :
  run_publish File [RFail] [] = mkObs VErr (mkFs File Absent Absent) [].
Proof. reflexivity. Qed.

(* first publication with a failing swap-in keeps the only copy *)
Example C23_ex_fresh_fail :
  run_publish Absent [RFail] [] = mkObs VErr (mkFs Absent New Absent) [(Stg, Out)].
Proof. reflexivity. Qed.

(* failed generation over an existing output *)
Example C23_ex_failed_generation :
  run_generate Prev GFail [] [] = mkObs VErr (mkFs Prev Absent Absent) [].
Proof. reflexivity. Qed.
