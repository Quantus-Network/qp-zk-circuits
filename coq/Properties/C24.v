(* C24 - Public-input parsers are total, exact and mutually consistent.

   Model: Sys/Parsers.v (hand-written after wormhole/inputs/src/lib.rs and wormhole/circuit/src/inputs.rs,
   tied to the implementation by the differential run of harness/src/bin/parsers.rs).
   Proofs: Sys/ParsersProofs.v.  Vocabulary used in the statements (all defined in ParsersProofs.v, independent of the
   parsers):
     at_ l i            = nth i l 0                       sub l a n = firstn n (skipn a l)
     u32_at l i         = 0 <= at_ l i < 2^32             digest_at l a = the 4 limbs at a..a+3 are < p
     slots_wf l c k     = k records of 5 felts from c: a u32 sum followed by a digest
     digests_wf l c k   = k digests of 4 felts from c
     slots_at/digests_at= the records read positionally (slots_at_nth, digests_at_nth give the index form)
     wf_leaf / wf_priv n / wf_pub m n   the well-formed layouts;  layout_*  the structure at the documented offsets
     valid_leaf / valid_priv n / valid_pub m n   valid structures;  res_class = Ok value | "an error" *)
From V.Base Require Import Common.
From V.Generated Require Import Constants.
From V.Sys Require Import Parsers ParsersProofs.

Lemma C24_pin_leaf_len : LEAF_PI_LEN = 21. Proof. reflexivity. Qed.
Lemma C24_pin_max_proof_count : MAX_PROOF_COUNT = 64. Proof. reflexivity. Qed.
Lemma C24_pin_public_header_len : PUBLIC_HEADER_LEN = 12. Proof. reflexivity. Qed.
Lemma C24_pin_public_exit_slot_len : PUBLIC_EXIT_SLOT_LEN = 5. Proof. reflexivity. Qed.
Lemma C24_pin_public_address_len : PUBLIC_AGGREGATOR_ADDRESS_LEN = 4. Proof. reflexivity. Qed.
Lemma C24_pin_inputs_order : INPUTS_GOLDILOCKS_ORDER = p. Proof. reflexivity. Qed.
Lemma C24_pin_field_order : FIELD_ORDER = p. Proof. reflexivity. Qed.
Lemma C24_pin_p : p = 2 ^ 64 - 2 ^ 32 + 1. Proof. reflexivity. Qed.
Lemma C24_pin_two32 : two32 = 2 ^ 32 /\ two64 = 2 ^ 64. Proof. split; reflexivity. Qed.
Lemma C24_pin_leaf_offsets :
  [IDX_ASSET_ID; IDX_OUTPUT_AMOUNT_1; IDX_OUTPUT_AMOUNT_2; IDX_VOLUME_FEE_BPS;
   IDX_NULLIFIER_START; IDX_NULLIFIER_END; IDX_EXIT_1_START; IDX_EXIT_1_END;
   IDX_EXIT_2_START; IDX_EXIT_2_END; IDX_BLOCK_HASH_START; IDX_BLOCK_HASH_END; IDX_BLOCK_NUMBER]
  = [0; 1; 2; 3; 4; 8; 8; 12; 12; 16; 16; 20; 20].
Proof. reflexivity. Qed.

(* these lemmas only re-state the definitions used below, so that the file can be read on its own *)
Lemma C24_spec_wf_leaf pis :
  wf_leaf pis <->
  length pis = 21%nat /\
  u32_at pis 0 /\ u32_at pis 1 /\ u32_at pis 2 /\ u32_at pis 3 /\
  digest_at pis 4 /\ digest_at pis 8 /\ digest_at pis 12 /\ digest_at pis 16 /\ u32_at pis 20.
Proof. reflexivity. Qed.
Lemma C24_spec_wf_priv n pis :
  wf_priv n pis <->
  (1 <= n <= 64)%nat /\ length pis = (8 + 21 * n)%nat /\
  at_ pis 0 = Z.of_nat (2 * n) /\ u32_at pis 1 /\ u32_at pis 2 /\ digest_at pis 3 /\ u32_at pis 7 /\
  slots_wf pis 8 (2 * n) /\ digests_wf pis (8 + 10 * n) n.
Proof. reflexivity. Qed.
Lemma C24_spec_wf_pub m n pis :
  wf_pub m n pis <->
  length pis = (12 + 14 * (m * n))%nat /\
  digest_at pis 0 /\ u32_at pis 4 /\ u32_at pis 5 /\ digest_at pis 6 /\ u32_at pis 10 /\
  at_ pis 11 = Z.of_nat (2 * (m * n)) /\
  slots_wf pis 12 (2 * (m * n)) /\ digests_wf pis (12 + 10 * (m * n)) (m * n).
Proof. reflexivity. Qed.
Lemma C24_spec_regions l cur count :
  (slots_wf l cur count <->
   forall j, (j < count)%nat -> (0 <= at_ l (cur + 5 * j) < two32) /\
                                 (forall k, (k < 4)%nat -> 0 <= at_ l (cur + 5 * j + 1 + k) < p)) /\
  (digests_wf l cur count <->
   forall j, (j < count)%nat -> forall k, (k < 4)%nat -> 0 <= at_ l (cur + 4 * j + k) < p) /\
  (forall j d, (j < count)%nat ->
     nth j (slots_at l cur count) d = mkSlot (at_ l (cur + 5 * j)) (sub l (cur + 5 * j + 1) 4)) /\
  (forall j d, (j < count)%nat -> nth j (digests_at l cur count) d = sub l (cur + 4 * j) 4) /\
  length (slots_at l cur count) = count /\ length (digests_at l cur count) = count.
Proof.
  split; [reflexivity|]. split; [reflexivity|].
  split; [intros; apply slots_at_nth; assumption|].
  split; [intros; apply digests_at_nth; assumption|].
  split; [apply slots_at_length|apply digests_at_length].
Qed.

Theorem C24_total :
  (forall pis, Forall (fun x => 0 <= x < two64) pis -> parse_leaf_u64 pis <> Err PANIC) /\
  (forall raw, Forall (fun x => 0 <= x < two64) raw -> parse_leaf_felts raw <> Err PANIC) /\
  (forall pis, Forall (fun x => 0 <= x < two64) pis -> parse_priv_u64 pis <> Err PANIC) /\
  (forall raw, Forall (fun x => 0 <= x < two64) raw -> parse_priv_felts raw <> Err PANIC) /\
  (forall pis m n, Forall (fun x => 0 <= x < two64) pis -> 0 <= m < two64 -> 0 <= n < two64 ->
                   parse_pub_u64 pis m n <> Err PANIC).
Proof.
  split; [intros; eapply reads_safe, leaf_reads|].
  split; [intros; eapply reads_safe, leaf_canon_reads, map_to_canonical_canon; assumption|].
  split; [intros; eapply reads_safe, priv_reads|].
  split; [intros; eapply reads_safe, priv_canon_reads, map_to_canonical_canon; assumption|].
  intros pis m n _ Hm Hn. apply safe_parse_pub_u64; lia.
Qed.

Theorem C24_leaf_accept_iff : forall pis s,
  parse_leaf_u64 pis = Ok s <-> wf_leaf pis /\ s = layout_leaf pis.
Proof. exact leaf_accept_iff. Qed.

Theorem C24_private_accept_iff : forall pis s,
  parse_priv_u64 pis = Ok s <-> exists n, wf_priv n pis /\ s = layout_priv n pis.
Proof. exact priv_accept_iff. Qed.

Theorem C24_public_accept_iff : forall pis m n s,
  0 <= m < two64 -> 0 <= n < two64 ->
  (parse_pub_u64 pis m n = Ok s <->
   1 <= m <= 64 /\ 1 <= n <= 64 /\
   wf_pub (Z.to_nat m) (Z.to_nat n) pis /\ s = layout_pub (Z.to_nat m) (Z.to_nat n) pis).
Proof.
  intros pis m n s [Hm _] [Hn _].
  pose proof (reads_ok_iff _ _ _ (pub_reads pis (Z.to_nat m) (Z.to_nat n)) s) as R.
  rewrite (Z2Nat.id m Hm), (Z2Nat.id n Hn) in R. rewrite R. split; [intros ((A & B & W) & E)|intros (A & B & W & E)]; auto.
Qed.

(* the felt-based parsers accept exactly the same set, read on the canonical values of the felts *)
Theorem C24_leaf_felts_accept_iff : forall raw s,
  Forall (fun x => 0 <= x < two64) raw ->
  (parse_leaf_felts raw = Ok s <-> wf_leaf (map to_canonical raw) /\ s = layout_leaf (map to_canonical raw)).
Proof. intros raw s F. apply reads_ok_iff, leaf_canon_reads, map_to_canonical_canon, F. Qed.

Theorem C24_private_felts_accept_iff : forall raw s,
  Forall (fun x => 0 <= x < two64) raw ->
  (parse_priv_felts raw = Ok s <->
   exists n, wf_priv n (map to_canonical raw) /\ s = layout_priv n (map to_canonical raw)).
Proof. intros raw s F. apply reads_priv_exists, priv_canon_reads, map_to_canonical_canon, F. Qed.

Theorem C24_roundtrip_leaf : forall s, valid_leaf s -> parse_leaf_u64 (serialize_leaf s) = Ok s.
Proof. intros s V. apply leaf_accept_iff. destruct (serialize_leaf_wf s V). auto. Qed.

Theorem C24_roundtrip_private : forall n s padding,
  valid_priv n s -> length padding = (7 * n)%nat -> parse_priv_u64 (serialize_priv s padding) = Ok s.
Proof.
  intros n s padding V Lp. apply priv_accept_iff. exists n. destruct (serialize_priv_wf n s padding V Lp). auto.
Qed.

Theorem C24_roundtrip_public : forall m n s,
  valid_pub m n s -> parse_pub_u64 (serialize_pub s) (Z.of_nat m) (Z.of_nat n) = Ok s.
Proof.
  intros m n s V. apply (reads_ok_iff _ _ _ (pub_reads _ m n)).
  destruct (serialize_pub_wf m n s V). destruct V as (M%count_range & N%count_range & _). auto.
Qed.

(* Equality is by result class (the value when accepted, "an error" otherwise): the two parsers run
   their checks in different orders, so on an input with two defects they report different errors.
   The hypothesis is the representation invariant of GoldilocksField (its inner value is a u64). *)
Theorem C24_private_parsers_agree : forall raw,
  Forall (fun x => 0 <= x < two64) raw ->
  res_class (parse_priv_felts raw) = res_class (parse_priv_u64 (map to_canonical raw)).
Proof.
  intros raw F. exact (reads_agree _ _ _ _ (priv_canon_reads _ (map_to_canonical_canon raw F)) (priv_reads _)).
Qed.

Theorem C24_leaf_parsers_agree : forall raw,
  Forall (fun x => 0 <= x < two64) raw ->
  res_class (parse_leaf_felts raw) = res_class (parse_leaf_u64 (map to_canonical raw)).
Proof.
  intros raw F. exact (reads_agree _ _ _ _ (leaf_canon_reads _ (map_to_canonical_canon raw F)) (leaf_reads _)).
Qed.

(* without the canonicalisation the parsers do differ: a raw limb >= p is an error for the u64 parser
   and a valid (reduced) limb for the felt parser - which is why the statement above maps to_canonical *)
Example C24_agree_needs_canonical :
  exists raw, Forall (fun x => 0 <= x < two64) raw /\
              res_class (parse_leaf_felts raw) <> res_class (parse_leaf_u64 raw).
Proof.
  exists (repeat 0 4 ++ [p] ++ repeat 0 16). split.
  - repeat constructor; unfold two64, p; lia.
  - vm_compute. discriminate.
Qed.

Example C24_ex_leaf_vector : list Z :=
  [7; 100; 4294967295; 10000;  1; 2; 3; p - 1;  5; 6; 7; 8;  0; 0; 0; 0;  9; 10; 11; 12;  42].
Example C24_ex_leaf_accepted :
  is_ok (parse_leaf_u64 C24_ex_leaf_vector) = true /\ is_ok (parse_leaf_felts C24_ex_leaf_vector) = true /\
  wf_leaf C24_ex_leaf_vector.
Proof.
  assert (parse_leaf_u64 C24_ex_leaf_vector = Ok (layout_leaf C24_ex_leaf_vector)) as E by (vm_compute; reflexivity).
  split; [rewrite E; reflexivity|]. split; [vm_compute; reflexivity|]. apply leaf_accept_iff in E. apply E.
Qed.

(* n = 2: 8 header felts, 4 slots, 2 nullifiers, 14 felts of (arbitrary, here huge) padding *)
Example C24_ex_priv_vector : list Z :=
  [4; 0; 25; 1; 2; 3; 4; 77] ++
  [10; 1; 1; 1; 1] ++ [20; 2; 2; 2; 2] ++ [0; 0; 0; 0; 0] ++ [4294967295; p - 1; 0; 0; 0] ++
  [11; 12; 13; 14] ++ [21; 22; 23; 24] ++ repeat (two64 - 1) 14.
Example C24_ex_priv_accepted :
  is_ok (parse_priv_u64 C24_ex_priv_vector) = true /\ wf_priv 2 C24_ex_priv_vector /\
  parse_priv_u64 C24_ex_priv_vector = Ok (layout_priv 2 C24_ex_priv_vector).
Proof.
  assert (parse_priv_u64 C24_ex_priv_vector = Ok (layout_priv 2 C24_ex_priv_vector)) as E by (vm_compute; reflexivity).
  split; [rewrite E; reflexivity|]. split; [|exact E].
  exact (proj1 (proj1 (reads_ok_iff _ _ _ (priv_reads _) _) E)).
Qed.
(* the felt parser on the same vector: the non-canonical padding is reduced, the result is the same *)
Example C24_ex_priv_felts_accepted :
  parse_priv_felts C24_ex_priv_vector = parse_priv_u64 C24_ex_priv_vector.
Proof. rewrite (proj2 (proj2 C24_ex_priv_accepted)). vm_compute. reflexivity. Qed.

(* m = 2, n = 1: 12 header felts, 4 slots, 2 nullifiers *)
Example C24_ex_pub_vector : list Z :=
  [1; 2; 3; 4;  0; 25;  5; 6; 7; 8;  99; 4] ++
  [10; 1; 1; 1; 1] ++ [20; 2; 2; 2; 2] ++ [0; 0; 0; 0; 0] ++ [30; 3; 3; 3; p - 1] ++
  [11; 12; 13; 14] ++ [21; 22; 23; 24].
Example C24_ex_pub_accepted :
  parse_pub_u64 C24_ex_pub_vector 2 1 = Ok (layout_pub 2 1 C24_ex_pub_vector) /\ wf_pub 2 1 C24_ex_pub_vector.
Proof.
  assert (parse_pub_u64 C24_ex_pub_vector 2 1 = Ok (layout_pub 2 1 C24_ex_pub_vector)) as E by (vm_compute; reflexivity).
  split; [exact E|].
  apply (reads_ok_iff _ _ _ (pub_reads _ 2 1)) in E. destruct E as ((_ & _ & W) & _). exact W.
Qed.

(* valid structures exist (hypotheses of the round-trip theorems are satisfiable), and rejection happens *)
Example C24_ex_valid_structures :
  valid_leaf (layout_leaf C24_ex_leaf_vector) /\ valid_priv 2 (layout_priv 2 C24_ex_priv_vector) /\
  valid_pub 2 1 (layout_pub 2 1 C24_ex_pub_vector).
Proof.
  split; [apply wf_leaf_valid; [reflexivity|apply C24_ex_leaf_accepted]|].
  split; [apply wf_priv_valid; [reflexivity|apply C24_ex_priv_accepted]|].
  apply wf_pub_valid; [lia|lia|reflexivity|apply C24_ex_pub_accepted].
Qed.
Example C24_ex_rejections :
  res_class (parse_leaf_u64 (repeat 0 20)) = None /\
  res_class (parse_priv_u64 (1 :: repeat 0 28)) = None /\          (* pis[0] <> 2n *)
  res_class (parse_priv_u64 (repeat 0 (8 + 21 * 65))) = None /\   (* 65 leaves *)
  res_class (parse_pub_u64 C24_ex_pub_vector 65 1) = None /\
  res_class (parse_pub_u64 C24_ex_pub_vector 0 1) = None.
Proof. vm_compute. repeat split; reflexivity. Qed.
