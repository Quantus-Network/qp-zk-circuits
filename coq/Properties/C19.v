(* C19 - Pool admission decides exactly by the documented rules, in order.
   Model: Sys/Pool.v (push, parse_metadata); proofs: Sys/PoolProofs.v. *)
From V.Base Require Import Common.
From V.Generated Require Import Constants.
From V.Sys Require Import Pool PoolProofs.

(* the layout the model parses with is the one the Rust constants/functions describe *)
Lemma C19_pin_offsets :
  (PR_OUT_ASSET_ID_OFFSET, PR_OUT_VOLUME_FEE_BPS_OFFSET, PR_OUT_BLOCK_HASH_OFFSET, PR_OUT_HEADER_LEN,
   PR_OUT_EXIT_SLOT_LEN, LEAF_PI_LEN) = (1, 2, 3, 8, 5, 21).
Proof. reflexivity. Qed.
Lemma C19_pin_pi_len : pi_len_of 1 = POOL_PI_LEN_1 /\ pi_len_of 2 = POOL_PI_LEN_2.
Proof. split; reflexivity. Qed.
Lemma C19_pin_nullifiers_start :
  Z.of_nat (nullifiers_start 1) = POOL_NULLIFIERS_START_1 /\ Z.of_nat (nullifiers_start 2) = POOL_NULLIFIERS_START_2.
Proof. split; reflexivity. Qed.
Lemma C19_pin_counts :
  (Z.of_nat (1 * 2), Z.of_nat (2 * 2), 1, 2, Z.of_nat HEADER)
  = (POOL_EXIT_SLOTS_COUNT_1, POOL_EXIT_SLOTS_COUNT_2, POOL_NULLIFIERS_COUNT_1, POOL_NULLIFIERS_COUNT_2, POOL_EXIT_SLOTS_START).
Proof. reflexivity. Qed.

(* admission: exactly the seven conditions.  [window_verifs] is the attempt counter after the
   window check (0 if a full window has elapsed since the window start). *)
Theorem C19_admit_iff : forall cfg st pr,
  (exists k, o_ret (snd (step cfg st (Push pr))) = RPush (Ok k)) <->
  total_len (s_buckets st) < c_max_proofs cfg
  /\ exists k nulls vol,
       parse_metadata cfg pr = Ok (k, nulls, vol)
       /\ is_dummy k = false
       /\ window_verifs cfg st < c_budget cfg
       /\ p_ver pr = true
       /\ (has_bucket k (s_buckets st) = true \/ zlen (s_buckets st) < c_max_buckets cfg)
       /\ (forall n, In n nulls -> idx_lookup n (s_index st) = None).
Proof.
  intros cfg st pr. cbn [step].
  destruct (push_spec cfg st pr)
    as [c He|k nulls vol _ Hb|c k nulls vol (_ & Hp & _) _ Hl|k nulls vol (Hlen & Hp & Hd) Hb Hv Hroom Hfresh].
  1-3: split; [intros [k' H]; discriminate H|];
    intros (Hlen' & k' & nulls' & vol' & Hp' & Hd' & Hb' & Hv' & Hroom' & Hfresh'); exfalso.
  - exact (early_reject_passes cfg st pr c k' nulls' vol' He (conj Hlen' (conj Hp' Hd'))).
  - lia.
  - assert (E : (k', nulls') = (k, nulls)) by congruence. inversion E; subst k' nulls'.
    destruct Hl as [[Hv _]|[_ [[Hr _]|[_ [Hf _]]]]]; [congruence|exact (Hr Hroom')|exact (Hf Hfresh')].
  - split; [intros _|intros _; exists k; reflexivity]. split; [exact Hlen|]. exists k, nulls, vol. auto 7.
Qed.

(* "right length and canonical digests": for a pool built by ProofPool::new the parse succeeds exactly on
   the right length (a digest is read by passing four limbs through to_canonical_u64, [slice4]: there is
   no check on the limbs that could fail) *)
Theorem C19_parse_ok_iff_len : forall cfg pr,
  wf_cfg cfg -> (is_ok (parse_metadata cfg pr) = true <-> zlen (p_pis pr) = c_pi_len cfg).
Proof.
  intros cfg pr W. rewrite is_ok_iff. split; [|apply parse_ok_len; exact W].
  intros [[[k nulls] vol] H]. apply parse_metadata_ok_iff in H. apply H.
Qed.

(* "its block hash is non-zero" *)
Theorem C19_dummy_is_zero_block_hash : forall cfg pr k nulls vol,
  parse_metadata cfg pr = Ok (k, nulls, vol) ->
  is_dummy k = list_eqb (map to_canonical (firstn 4 (skipn OFF_BH (p_pis pr)))) ZERO_DIGEST.
Proof. intros cfg pr k nulls vol H. apply parse_key in H. destruct H as (bh & a & f & -> & _ & _ & _ & H). exact H. Qed.

(* "its bucket already exists", "none of its nullifiers is already pooled", read on the pooled proofs *)
Theorem C19_conditions_on_pooled : forall cfg st,
  Inv cfg st ->
  (forall k, has_bucket k (s_buckets st) = true <-> exists e, In (k, e) (keyed_entries (s_buckets st)))
  /\ (forall n, idx_lookup n (s_index st) = None <-> forall e, In e (pooled st) -> ~ In n (e_nulls e)).
Proof. intros cfg st Hi. split; intro x; [exact (has_bucket_iff_pooled cfg st x Hi)|exact (index_none_iff cfg st x Hi)]. Qed.

(* order: the bucket-limit and duplicate-nullifier rejections happen only after the verifier
   was called on this proof and accepted it, with the attempt charged to the budget *)
Theorem C19_order : forall cfg st pr,
  o_ret (snd (step cfg st (Push pr))) = RPush (Err E_BUCKETS)
  \/ o_ret (snd (step cfg st (Push pr))) = RPush (Err E_DUP) ->
  p_ver pr = true
  /\ o_verified (snd (step cfg st (Push pr))) = true
  /\ window_verifs cfg st < c_budget cfg
  /\ s_verifs (fst (step cfg st (Push pr))) = window_verifs cfg st + 1.
Proof.
  intros cfg st pr. cbn [step].
  destruct (push_spec cfg st pr) as [c He|k nulls vol _ _|c k nulls vol _ Hb Hl|k nulls vol _ _ _ _ _]; intro H.
  - apply early_reject_codes in He. assert (c = E_BUCKETS \/ c = E_DUP) as [->| ->] by (destruct H; [left|right]; congruence);
      destruct He as [He|[He|[He|He]]]; discriminate He.
  - destruct H; discriminate.
  - split; [|auto]. destruct Hl as [[_ ->]|[Hv _]]; [destruct H; discriminate|exact Hv].
  - destruct H; discriminate.
Qed.

(* a rejected push leaves the pool unchanged apart from the budget counter / window start *)
Theorem C19_reject_unchanged : forall cfg st pr c,
  o_ret (snd (step cfg st (Push pr))) = RPush (Err c) ->
  fst (step cfg st (Push pr))
  = set_budget st (s_win_start (fst (step cfg st (Push pr)))) (s_verifs (fst (step cfg st (Push pr)))).
Proof.
  intros cfg st pr c. cbn [step].
  destruct (push_spec cfg st pr); intro Hr; [symmetry; apply set_budget_id|reflexivity|reflexivity|discriminate Hr].
Qed.

(* ... and how the budget fields move, by rejection reason: untouched before the budget check; window
   bookkeeping only when exhausted; charged by one once the verifier is called *)
Theorem C19_reject_budget : forall cfg st pr c,
  o_ret (snd (step cfg st (Push pr))) = RPush (Err c) ->
  (o_verified (snd (step cfg st (Push pr))) = false /\ (c = E_FULL \/ c = E_LEN \/ c = PANIC \/ c = E_DUMMY)
     /\ fst (step cfg st (Push pr)) = st)
  \/ (o_verified (snd (step cfg st (Push pr))) = false /\ c = E_BUDGET /\ fst (step cfg st (Push pr)) = windowed cfg st)
  \/ (o_verified (snd (step cfg st (Push pr))) = true /\ (c = E_VERIFY \/ c = E_BUCKETS \/ c = E_DUP)
     /\ fst (step cfg st (Push pr)) = charged cfg st).
Proof.
  intros cfg st pr c. cbn [step].
  destruct (push_spec cfg st pr) as [c' He|k nulls vol _ _|c' k nulls vol _ _ Hl|k nulls vol _ _ _ _ _];
    intro H; inversion H; subst.
  - left. apply early_reject_codes in He. auto.
  - right. left. auto.
  - right. right. apply late_reject_codes in Hl. auto.
Qed.

(* non-vacuity: one history that is admitted twice and hits every rejection reason *)
Definition ex_pis (bh0 asset null0 sum0 : Z) : list Z :=
  [2; asset; 10; bh0; 0; 0; 0; 77; sum0; 0; 0; 0; 0; 50; 0; 0; 0; 0; null0; 0; 0; 0] ++ repeat 0 7.
Definition ex_cfg : config := mkConfig 2 1 1 3 100 1 29.
Definition ex_history : list op :=
  [ Push (mkProof (ex_pis 0 0 11 100) true);                 (* all-dummy key *)
    Push (mkProof (removelast (ex_pis 1 0 11 100)) true);    (* wrong length *)
    Push (mkProof (ex_pis 1 0 11 100) false);                (* does not verify *)
    Push (mkProof (ex_pis 1 0 11 100) true);                 (* admitted *)
    Push (mkProof (ex_pis 2 0 12 100) true);                 (* second key, max_buckets = 1 *)
    Push (mkProof (ex_pis 1 0 11 100) true);                 (* budget of 3 attempts used up *)
    Advance 100;
    Push (mkProof (ex_pis 1 0 11 100) true);                 (* new window; nullifier 11 already pooled *)
    Push (mkProof (ex_pis 1 0 12 100) true);                 (* admitted *)
    Push (mkProof (ex_pis 1 0 13 100) true) ].               (* max_proofs = 2 *)

Example C19_example_cfg_wf : wf_cfg ex_cfg.
Proof. constructor; cbn; unfold MAX_PROOF_COUNT, pi_len_of, LEAF_PI_LEN; easy. Qed.

Example C19_example_every_reason :
  map o_ret (snd (run ex_cfg (init 0) ex_history))
  = [ RPush (Err E_DUMMY); RPush (Err E_LEN); RPush (Err E_VERIFY); RPush (Ok [1; 0; 0; 0; 0; 10]);
      RPush (Err E_BUCKETS); RPush (Err E_BUDGET); RUnit; RPush (Err E_DUP);
      RPush (Ok [1; 0; 0; 0; 0; 10]); RPush (Err E_FULL) ].
Proof. vm_compute. reflexivity. Qed.

Example C19_example_verifier_calls :
  map o_verified (snd (run ex_cfg (init 0) ex_history))
  = [false; false; true; true; true; false; false; true; true; false]
  /\ map o_restarted (snd (run ex_cfg (init 0) ex_history))
  = [false; false; false; false; false; false; false; true; false; false].
Proof. pattern (snd (run ex_cfg (init 0) ex_history)). vm_compute. split; reflexivity. Qed.
