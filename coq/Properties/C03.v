(* C03 - For every satisfiable non-dummy leaf statement, the public block hash is the Poseidon2 hash of
   a header preimage in the fixed order (parent, number, state root, extrinsics root, tree root,
   digest).  That header's tree root is reached from H(recipient || count || asset || input) by at most
   16 levels of 4-ary hashing with the running hash inserted at a position in 0..3.  The public block
   number is the number inside that preimage.

   [insert_at pos cur sibs] = the three siblings with [cur] inserted at index [pos];
   [fold_insert H cur levels] iterates cur := H (concat (insert_at pos cur sibs)) over the levels.
   Model, semantics and hypotheses: see C01.v.  Proofs: V.Circ.LeafProofs. *)
From V.Base Require Import Common.
From V.Generated Require Import Constants.
From V.Circ Require Import Field Core Prims Gadgets Leaf LeafProofs.

Lemma C03_pin_max_depth : MERKLE_MAX_DEPTH = 16. Proof. reflexivity. Qed.
Lemma C03_pin_arity : MERKLE_ARITY = 4 /\ MERKLE_SIBLINGS_PER_LEVEL = 3. Proof. split; reflexivity. Qed.
(* n_log = usize::BITS - MAX_DEPTH.leading_zeros() *)
Lemma C03_pin_n_log : Z.of_nat n_log_depth = Z.log2 MERKLE_MAX_DEPTH + 1. Proof. reflexivity. Qed.

Theorem C03_block_and_path :
  forall (H : list Z -> list Z) (i : LeafIn) (post : list Z -> Prop),
    hash_wf H -> wf_in i -> rel H (leaf_circuit i) post -> is_dummy_stmt i = false ->
    li_block_hash i = H (header_preimage i) /\
    li_depth i <= 16 /\ Forall (fun q => 0 <= q < 4) (li_positions i) /\
    li_tree_root i =
      fold_insert H (H (li_to_account i ++ li_leaf_tc i ++ [li_asset i; li_input_amount i]))
                  (firstn (Z.to_nat (li_depth i)) (combine (li_siblings i) (li_positions i))).
Proof.
  intros H i post Hwf W R D. apply (leaf_ok_of_rel H Hwf i W) in R.
  destruct R as (_ & _ & (Dp & Ps) & _ & _ & B). destruct (B D) as (_ & Bh & Tr & Mr).
  repeat (split; [assumption|]). rewrite Tr, <- Mr. reflexivity.
Qed.

(* the preimage: fixed order, with the PUBLIC block number and the tree root of the path *)
Theorem C03_preimage_order :
  forall i : LeafIn,
    header_preimage i = li_parent_hash i ++ [li_block_number i] ++ li_state_root i ++ li_extrinsics_root i
                        ++ li_tree_root i ++ li_digest i.
Proof. reflexivity. Qed.

Theorem C03_insert_positions :
  forall c s0 s1 s2 : list Z,
    insert_at 0 c [s0; s1; s2] = [c; s0; s1; s2] /\ insert_at 1 c [s0; s1; s2] = [s0; c; s1; s2] /\
    insert_at 2 c [s0; s1; s2] = [s0; s1; c; s2] /\ insert_at 3 c [s0; s1; s2] = [s0; s1; s2; c].
Proof. intros. repeat split. Qed.

Theorem C03_depth_and_positions_unconditional :
  forall (H : list Z -> list Z) (i : LeafIn) (post : list Z -> Prop),
    hash_wf H -> wf_in i -> rel H (leaf_circuit i) post ->
    li_depth i <= 16 /\ Forall (fun q => 0 <= q < 4) (li_positions i).
Proof. intros H i post Hwf W R. apply (leaf_ok_of_rel H Hwf i W) in R. exact (proj1 (proj2 (proj2 R))). Qed.

Example C03_nv_wf : wf_in ex_real. Proof. exact ex_real_wf. Qed.
Example C03_nv_not_dummy : is_dummy_stmt ex_real = false /\ li_depth ex_real = 1.
Proof. split; [exact ex_real_not_dummy|reflexivity]. Qed.
Example C03_nv_accepted : hon H0 (leaf_circuit ex_real) = Some (leaf_public_inputs ex_real).
Proof. exact ex_real_accepted. Qed.
Example C03_nv_rel : rel H0 (leaf_circuit ex_real) (fun o => o = leaf_public_inputs ex_real).
Proof. exact (leaf_sat H0 ex_real C03_nv_wf C03_nv_accepted). Qed.
Example C03_nv_depth0_accepted :
  hon H0 (leaf_circuit ex_real_depth0) = Some (leaf_public_inputs ex_real_depth0).
Proof. vm_compute. reflexivity. Qed.
(* header tree root unrelated to the path / depth 17: no witness at all *)
Example C03_nv_wrong_tree_root : forall post, ~ rel H0 (leaf_circuit ex_bad_tree_root) post.
Proof. apply leaf_unsat_b; vm_compute; reflexivity. Qed.
Example C03_nv_depth_17 : forall post, ~ rel H0 (leaf_circuit ex_bad_depth) post.
Proof. apply leaf_unsat_b; vm_compute; reflexivity. Qed.
