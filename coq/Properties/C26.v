(* C26 - compact node hashing is injective on the domain it accepts.
   Model: Sys/Encoding.v; proofs: Sys/EncodingProofs.v.  The Poseidon2 sponge is the arbitrary function
   [H : list Z -> list Z]; every statement holds for all H.  [limbs8 bs] is the list of little-endian
   8-byte limbs of [bs]; [p] is the Goldilocks modulus (a literal). *)
From Coq Require Import Permutation Sorted.
From V.Base Require Import Common.
From V.Generated Require Import Constants.
From V.Sys Require Import Encoding EncodingProofs.

Lemma C26_pin_max_bytes : MAX_SERIALIZED_BYTES = 1048576. Proof. reflexivity. Qed.
Lemma C26_pin_moduli :
  POSEIDON_CORE_P = 18446744069414584321 /\ MERKLE_GOLDILOCKS_MODULUS = 18446744069414584321 /\
  FIELD_ORDER = 18446744069414584321 /\ p = 18446744069414584321.
Proof. repeat split; reflexivity. Qed.
Lemma C26_pin_node_shape : MERKLE_ARITY = 4 /\ MERKLE_CHILDREN_BYTES = 128 /\ DIGEST_BYTES_LEN = 32.
Proof. repeat split; reflexivity. Qed.

(* accepted iff length <= 2^20, length a multiple of 8, every 8-byte limb below p; never a panic.
   The last two clauses say what "limb" means: limbs8 inverts the concatenation of 8-byte LE words. *)
Theorem C26_accept_iff :
  (forall H bs, is_ok (hash_bytes_compact H bs) = true <->
     (zlen bs <= 1048576 /\ zlen bs mod 8 = 0 /\ Forall (fun v => v < p) (limbs8 bs))) /\
  (forall H bs, hash_bytes_compact H bs <> Err (-1)) /\
  (forall ls, Forall (fun v => 0 <= v < two64) ls -> limbs8 (flat_map (to_le 8) ls) = ls) /\
  (forall bs, Forall (fun b => 0 <= b < 256) bs -> zlen bs mod 8 = 0 ->
     flat_map (to_le 8) (limbs8 bs) = bs /\ Forall (fun v => 0 <= v < two64) (limbs8 bs)).
Proof.
  split; [exact compact_accept_iff|]. split; [exact compact_safe|]. split; [exact limbs8_flat|].
  intros bs B A. apply aligned8_iff in A. split; [apply flat_limbs8|apply limbs8_u64]; assumption.
Qed.

(* distinct accepted inputs are handed to the sponge as distinct felt sequences
   ([compact_preimage] is the felt list that is hashed, second clause) *)
Theorem C26_encoding_injective :
  (forall a b fa fb, Forall (fun x => 0 <= x < 256) a -> Forall (fun x => 0 <= x < 256) b ->
     compact_preimage a = Ok fa -> compact_preimage b = Ok fb -> fa = fb -> a = b) /\
  (forall H bs, hash_bytes_compact H bs =
                match compact_preimage bs with Ok f => Ok (hash_to_bytes H f) | Err c => Err c end).
Proof.
  split; [exact compact_encoding_injective|].
  intros H bs. unfold hash_bytes_compact. destruct (compact_preimage bs); reflexivity.
Qed.

(* partial (as designed): that distinct felt sequences hash distinctly is collision resistance of
   the sponge - an explicit premise here *)
Theorem C26_hash_injective_given_collision_free_sponge_partial :
  forall H a b ha hb, Forall (fun x => 0 <= x < 256) a -> Forall (fun x => 0 <= x < 256) b ->
    (forall x y, hash_to_bytes H x = hash_to_bytes H y -> x = y) ->
    hash_bytes_compact H a = Ok ha -> hash_bytes_compact H b = Ok hb -> ha = hb -> a = b.
Proof. exact compact_hash_injective_cr. Qed.

(* four 32-byte children: a value iff every child is canonical, otherwise the error (code 3, not the
   panic code -1) - for both node hashes; is_canonical_hash is "every limb below p" *)
Theorem C26_node_error_not_value :
  (forall H cs, zlen cs = 4 -> Forall (fun c => zlen c = 32) cs ->
     hash_node H cs =
     if forallb is_canonical_hash cs then Ok (hash_to_bytes H (flat_map limbs8 (sort_children cs))) else Err 3) /\
  (forall H cs, zlen cs = 4 -> Forall (fun c => zlen c = 32) cs ->
     hash_node_presorted H cs =
     if forallb is_canonical_hash cs then Ok (hash_to_bytes H (flat_map limbs8 cs)) else Err 3) /\
  (forall c, is_canonical_hash c = true <-> Forall (fun v => v < p) (limbs8 c)).
Proof. exact (conj node_spec (conj presorted_spec is_canonical_hash_iff)). Qed.

Theorem C26_node_order_independent :
  forall H c1 c2, Permutation c1 c2 -> hash_node H c1 = hash_node H c2.
Proof. exact node_order_independent. Qed.

(* presorted hashing agrees on sorted children; hash_node is presorted hashing of the sorted
   arrangement, which is sorted and a permutation; the byte-lexicographic order is a total order *)
Theorem C26_presorted_on_sorted :
  (forall H cs, StronglySorted (fun a b => lex_leb a b = true) cs -> hash_node H cs = hash_node_presorted H cs) /\
  (forall H cs, hash_node H cs = hash_node_presorted H (sort_children cs)) /\
  (forall cs, StronglySorted (fun a b => lex_leb a b = true) (sort_children cs) /\ Permutation (sort_children cs) cs) /\
  (forall a b, lex_leb a b = true \/ lex_leb b a = true) /\
  (forall a b, lex_leb a b = true -> lex_leb b a = true -> a = b) /\
  (forall a b c, lex_leb a b = true -> lex_leb b c = true -> lex_leb a c = true).
Proof.
  split; [exact node_presorted_on_sorted|]. split; [exact node_is_presorted_of_sort|].
  split; [exact (fun cs => conj (sort_sorted cs) (sort_perm cs))|].
  exact (conj lex_total (conj lex_antisym lex_trans)).
Qed.

(* non-vacuity, with a toy sponge (first four felts of the preimage) *)
Definition toyH (l : list Z) : list Z := firstn 4 l.
Example C26_ex_accept :
  is_ok (hash_bytes_compact toyH (to_le 8 (p - 1) ++ to_le 8 5)) = true /\
  hash_bytes_compact toyH (to_le 8 p ++ to_le 8 5) = Err 3 /\
  hash_bytes_compact toyH [1; 2; 3] = Err 2 /\
  hash_bytes_compact toyH [] = Ok [].
Proof. vm_compute. repeat split; reflexivity. Qed.
Example C26_ex_node :
  let a := repeat 1 32 in let b := repeat 2 32 in let c := 0 :: repeat 3 31 in let d := repeat 2 31 ++ [1] in
  hash_node toyH [a; b; c; d] = hash_node toyH [d; c; b; a] /\
  is_ok (hash_node toyH [a; b; c; d]) = true /\
  sort_children [a; b; c; d] = [c; a; d; b] /\
  hash_node toyH [c; a; d; b] = hash_node_presorted toyH [c; a; d; b] /\
  hash_node toyH [a; b; c; d] <> hash_node_presorted toyH [a; b; c; d] /\
  hash_node toyH [a; repeat 255 32; c; d] = Err 3.
Proof. cbv zeta. repeat split; try reflexivity. vm_compute. discriminate. Qed.
