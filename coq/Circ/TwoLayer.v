(* Two-layer composition (C36): real private batches aggregated into a public batch.
   Pure composition over the SPECIFICATION functions of Spec/LeanPort.v ([priv_output] for the inner
   statements, [pub_output] for the outer one); the link to the circuits is private_batch_spec
   (PrivateBatchProofs.v) and public_batch_spec (PublicBatchProofs.v).

   A [group] = the leaf statements of one private batch with its dummy-nullifier preimages.
     inner_of g          the private-batch statement  priv_output H (fst g) (snd g)
     batch_real leaves   the batch contains a real leaf (<-> its reference block hash is non-zero)
     amounts5 l          every 5th felt of l (the sums of a region of [sum; exit(4)] slots)
     chunk4 l            l cut into 4-felt digests *)
From Coq Require Import Permutation.
From V.Base Require Import Common.
From V.Circ Require Import Field Sorting PrivateBatch PublicBatch.
From V.Spec Require Import LeanPort LeanPortFacts.
From V.Circ Require Import PrivateBatchProofs PublicBatchProofs.
Import ListNotations.

Lemma leqb_refl a : list_eqb a a = true.
Proof. apply list_eqb_refl. Qed.

Fixpoint amounts5 (l : list Z) : list Z :=
  match l with
  | a :: _ :: _ :: _ :: _ :: r => a :: amounts5 r
  | _ => []
  end.
Fixpoint chunk4 (l : list Z) : list (list Z) :=
  match l with
  | a :: b :: c :: d :: r => [a; b; c; d] :: chunk4 r
  | _ => []
  end.
Definition zsum (l : list Z) : Z := fold_right Z.add 0 l.
Definition nonzero4 (d : list Z) : bool := negb (list_eqb d zero4).

Lemma zsum_app a b : zsum (a ++ b) = zsum a + zsum b.
Proof. unfold zsum. induction a as [|x a IH]; cbn [app fold_right]; [reflexivity|]. rewrite IH. lia. Qed.
Lemma zsum_repeat0 k : zsum (repeat 0 k) = 0.
Proof. unfold zsum. induction k as [|k IH]; cbn [repeat fold_right]; [reflexivity|]. rewrite IH. reflexivity. Qed.

Lemma amounts5_slots (slots : list (Z * digest)) rest : Forall slot_ok slots ->
  amounts5 (flat_map flat_slot slots ++ rest) = map fst slots ++ amounts5 rest.
Proof.
  induction 1 as [|[a d] r [_ [Hd _]] F IH]; cbn [flat_map map app]; [reflexivity|].
  destruct (length4_inv d Hd) as (d0 & d1 & d2 & d3 & ->). cbn [flat_slot fst snd app amounts5]. rewrite IH. reflexivity.
Qed.
Lemma amounts5_zeros k rest : amounts5 (repeat 0 (5 * k) ++ rest) = repeat 0 k ++ amounts5 rest.
Proof.
  induction k as [|k IH]; [reflexivity|].
  replace (5 * S k)%nat with (S (S (S (S (S (5 * k)))))) by lia. cbn [repeat app amounts5]. rewrite IH. reflexivity.
Qed.
Lemma amounts5_app k : forall a b, length a = (5 * k)%nat -> amounts5 (a ++ b) = amounts5 a ++ amounts5 b.
Proof.
  induction k as [|k IH]; intros a b L.
  - destruct a; [reflexivity|discriminate L].
  - destruct a as [|a0 [|a1 [|a2 [|a3 [|a4 r]]]]]; cbn [length] in L; try lia.
    cbn [app amounts5]. rewrite IH by lia. reflexivity.
Qed.
Lemma zsum_map_fst slots : zsum (map fst slots) = slotsTotal slots.
Proof. unfold zsum. induction slots as [|[a d] r IH]; cbn [map fold_right slotsTotal fst]; [reflexivity|]. rewrite IH. reflexivity. Qed.

Lemma amounts5_as_nth : forall m l, length l = (5 * m)%nat ->
  amounts5 l = map (fun k => nth (5 * k) l 0) (seq 0 m).
Proof.
  induction m as [|m IH]; intros l L.
  - destruct l; [reflexivity|discriminate L].
  - destruct l as [|a [|b [|c [|d [|e r]]]]]; cbn [length] in L; try lia.
    cbn [amounts5 seq map]. rewrite <- seq_shift, map_map. f_equal.
    rewrite (IH r) by lia. apply map_ext. intros k.
    replace (5 * S k)%nat with (S (S (S (S (S (5 * k)))))) by lia. reflexivity.
Qed.

Lemma chunk4_digests (ds : list (list Z)) rest : Forall good4 ds -> chunk4 (concat ds ++ rest) = ds ++ chunk4 rest.
Proof.
  induction 1 as [|d r [Hd _] F IH]; cbn [concat app]; [reflexivity|].
  destruct (length4_inv d Hd) as (d0 & d1 & d2 & d3 & ->). cbn [app chunk4]. rewrite IH. reflexivity.
Qed.
Lemma chunk4_zeros k rest : chunk4 (repeat 0 (4 * k) ++ rest) = repeat zero4 k ++ chunk4 rest.
Proof.
  induction k as [|k IH]; [reflexivity|].
  replace (4 * S k)%nat with (S (S (S (S (4 * k))))) by lia. cbn [repeat app chunk4]. rewrite IH. reflexivity.
Qed.
Lemma chunk4_app k : forall a b, length a = (4 * k)%nat -> chunk4 (a ++ b) = chunk4 a ++ chunk4 b.
Proof.
  induction k as [|k IH]; intros a b L.
  - destruct a; [reflexivity|discriminate L].
  - destruct a as [|a0 [|a1 [|a2 [|a3 r]]]]; cbn [length] in L; try lia.
    cbn [app chunk4]. rewrite IH by lia. reflexivity.
Qed.
Lemma filter_nonzero_zeros k : filter nonzero4 (repeat zero4 k) = [].
Proof. induction k as [|k IH]; cbn [repeat filter]; [reflexivity|]. exact IH. Qed.
Lemma filter_all_true {A} (f : A -> bool) l : Forall (fun x => f x = true) l -> filter f l = l.
Proof. induction 1 as [|x l Hx F IH]; cbn [filter]; [reflexivity|]. rewrite Hx, IH. reflexivity. Qed.
Lemma nonzero4_spec d : nonzero4 d = true <-> d <> zero4.
Proof. unfold nonzero4. rewrite negb_true_iff. apply list_eqb_false. Qed.

Definition digest4 (d : list Z) : Prop := length d = 4%nat /\ Forall canon d.
Definition H_shape (H : list Z -> list Z) : Prop := forall l, digest4 (H l).
Definition batch_real (leaves : list (list Z)) : bool := existsb is_real_pb leaves.

Lemma group_slots_ok leaves : Forall leaf_wf leaves -> Forall slot_ok (groupExits (maskedChildPairs leaves)).
Proof. intros W. apply groupExits_slots_ok, maskedChildPairs_ok, leaf_wf_fields_all, W. Qed.

(* accepted private batches: every grouped sum fits 32 bits (4th conjunct of priv_compat) *)
Definition sums_ok (leaves : list (list Z)) : Prop :=
  forallb (fun s => fst s <? two32) (groupExits (maskedChildPairs leaves)) = true.

Definition group := (list (list Z) * list (list Z))%type.
Section InnerOf.
  Variable H : list Z -> list Z.
  Definition inner_of (g : group) : list Z := priv_output H (fst g) (snd g).
End InnerOf.
Definition group_ok (n : Z) (g : group) : Prop :=
  zlen (fst g) = n /\ length (snd g) = length (fst g) /\ Forall leaf_wf (fst g) /\ sums_ok (fst g).

Lemma priv_compat_sums_ok leaves : priv_compat leaves = true -> sums_ok leaves.
Proof. rewrite priv_compat_unfold, !andb_true_iff. unfold sums_ok. tauto. Qed.

(* a private batch is forwarded as "real" exactly when it contains a real leaf *)
Lemma inner_dummy_iff H leaves us : Forall leaf_wf leaves ->
  is_dummy_inner (priv_output H leaves us) = negb (batch_real leaves).
Proof.
  intros W. unfold is_dummy_inner. change (in_bh ?x) with (firstn 4 (skipn 3 x)).
  rewrite (priv_output_bh H leaves us (leaf_wf_fields_all leaves W)). apply ref_bh_real.
Qed.
Lemma fwd_region_inner H (g : group) s len : Forall leaf_wf (fst g) ->
  fwd_region (inner_of H g) s len =
  if batch_real (fst g) then region (inner_of H g) s len else repeat 0 (Z.to_nat len).
Proof.
  intros W. unfold fwd_region, inner_of. rewrite inner_dummy_iff by exact W. destruct (batch_real (fst g)); reflexivity.
Qed.

Section Groups.
  Variable H : list Z -> list Z.
  Hypothesis HH : H_shape H.
  Variable n : Z.

  Lemma inner_regions g : group_ok n g ->
    region (inner_of H g) 8 (10 * n) = priv_exits (fst g) /\
    region (inner_of H g) (8 + 10 * n) (4 * n) = priv_nulls H (fst g) (snd g).
  Proof using HH.
    intros (Ln & Lu & W & _). pose proof (leaf_wf_fields_all _ W) as F. unfold region, inner_of, zlen in *.
    replace (Z.to_nat (10 * n)) with (10 * length (fst g))%nat by lia.
    replace (Z.to_nat (4 * n)) with (4 * length (fst g))%nat by lia.
    replace (Z.to_nat (8 + 10 * n)) with (8 + 10 * length (fst g))%nat by lia.
    split; [apply priv_output_exit_region, F|apply priv_output_null_region; assumption].
  Qed.

  Lemma inner_of_wf : 2 * n < p -> forall g, group_ok n g -> inner_wf n (inner_of H g).
  Proof using HH.
    intros Hp g (Ln & Lu & W & S). pose proof (leaf_wf_fields_all _ W) as F.
    split; [|apply priv_output_canon; try assumption; rewrite Ln; exact Hp].
    unfold inner_of, zlen in *. rewrite (priv_output_length H HH _ _ F Lu). lia.
  Qed.
  Lemma inners_wf : 2 * n < p -> forall groups, Forall (group_ok n) groups -> Forall (inner_wf n) (map (inner_of H) groups).
  Proof using HH. intros Hp groups F. apply Forall_map. eapply Forall_impl; [|exact F]. apply inner_of_wf, Hp. Qed.

  Lemma amounts5_group_exits g rest : group_ok n g ->
    zsum (amounts5 (fwd_region (inner_of H g) 8 (10 * n) ++ rest)) = inputExitTotal (fst g) + zsum (amounts5 rest).
  Proof using HH.
    intros G. pose proof G as (_ & _ & W & _). rewrite fwd_region_inner by exact W.
    destruct (batch_real (fst g)) eqn:R.
    - rewrite (proj1 (inner_regions g G)). unfold priv_exits.
      rewrite amounts5_slots, zsum_app, zsum_map_fst, conservation by apply group_slots_ok, W. reflexivity.
    - replace (Z.to_nat (10 * n)) with (5 * Z.to_nat (2 * n))%nat by lia.
      rewrite amounts5_zeros, zsum_app, zsum_repeat0, inputExitTotal_dummies by exact R. reflexivity.
  Qed.
  Lemma exits_value groups : Forall (group_ok n) groups ->
    zsum (amounts5 (pub_exits n (map (inner_of H) groups))) = zsum (map (fun g => inputExitTotal (fst g)) groups).
  Proof using HH.
    induction 1 as [|g r G F IH]; [reflexivity|].
    change (pub_exits n (map (inner_of H) (g :: r)))
      with (fwd_region (inner_of H g) 8 (10 * n) ++ pub_exits n (map (inner_of H) r)).
    rewrite amounts5_group_exits by exact G. rewrite IH. reflexivity.
  Qed.

  (* the nullifier region forwarded for one group *)
  Definition group_nulls (g : group) : list Z :=
    if batch_real (fst g) then priv_nulls H (fst g) (snd g) else repeat 0 (Z.to_nat (4 * n)).
  Lemma pub_nulls_groups groups : Forall (group_ok n) groups ->
    pub_nulls n (map (inner_of H) groups) = concat (map group_nulls groups).
  Proof using HH.
    intros F. unfold pub_nulls. rewrite map_map. f_equal. apply map_ext_Forall.
    eapply Forall_impl; [|exact F]. intros g G. unfold group_nulls. rewrite <- (proj2 (inner_regions g G)).
    apply fwd_region_inner, G.
  Qed.

  Definition group_selected (g : group) : list digest := selected_nullifiers H (fst g) (snd g).

  Lemma chunk4_group_nulls g rest : group_ok n g ->
    chunk4 (group_nulls g ++ rest) =
    (if batch_real (fst g) then sort_spec (group_selected g) else repeat zero4 (Z.to_nat n)) ++ chunk4 rest.
  Proof using HH.
    intros (Ln & Lu & W & _). unfold group_nulls. destruct (batch_real (fst g)).
    - apply chunk4_digests, sorted_selected_good; [exact HH|apply leaf_wf_fields_all, W].
    - replace (Z.to_nat (4 * n)) with (4 * Z.to_nat n)%nat by lia. apply chunk4_zeros.
  Qed.

  Lemma nonzero_nullifiers groups : Forall (group_ok n) groups ->
    Forall (fun g => batch_real (fst g) = true -> Forall (fun d => d <> zero4) (group_selected g)) groups ->
    Permutation (filter nonzero4 (chunk4 (concat (map group_nulls groups))))
                (concat (map group_selected (filter (fun g => batch_real (fst g)) groups))).
  Proof using HH.
    induction 1 as [|g r G F IH]; intros NZ; cbn [map concat filter]; [reflexivity|].
    inversion NZ as [|? ? NZg NZr]; subst.
    rewrite chunk4_group_nulls by exact G. rewrite filter_app.
    destruct (batch_real (fst g)) eqn:R; cbn [map concat].
    - apply Permutation_app; [|apply IH, NZr].
      rewrite filter_all_true; [apply sort_spec_perm|]. apply sort_spec_Forall.
      eapply Forall_impl; [|apply NZg; reflexivity]. intros d Nd. apply nonzero4_spec, Nd.
    - rewrite filter_nonzero_zeros. cbn [app]. apply IH, NZr.
  Qed.
End Groups.

Lemma total_real_only (groups : list group) :
  zsum (map (fun g => inputExitTotal (fst g)) groups) =
  zsum (map (fun g => inputExitTotal (fst g)) (filter (fun g => batch_real (fst g)) groups)).
Proof.
  induction groups as [|g r IH]; cbn [map filter]; [reflexivity|].
  destruct (batch_real (fst g)) eqn:R; cbn [map]; unfold zsum in *; cbn [fold_right]; rewrite IH; [reflexivity|].
  rewrite inputExitTotal_dummies by exact R. reflexivity.
Qed.

(* the 2NM slot sums of the public output (felts 12 + 5k) add up to the real leaves' output amounts *)
Theorem two_layer_value_felts (H : list Z -> list Z) (n : Z) address (groups : list group) :
  H_shape H -> 1 <= n -> 2 * n < p -> length address = 4%nat -> Forall (group_ok n) groups ->
  zsum (map (fun k => nth (12 + 5 * k) (pub_output n address (map (inner_of H) groups)) 0)
            (seq 0 (Z.to_nat (2 * n * zlen groups))))
  = zsum (map (fun g => inputExitTotal (fst g)) groups).
Proof.
  intros HH Hn Hp La F. set (out := pub_output n address (map (inner_of H) groups)).
  pose proof (inners_wf H HH n Hp groups F) as Wf.
  assert (E : region out 12 (10 * n * zlen groups) = pub_exits n (map (inner_of H) groups)).
  { unfold out. rewrite <- (zlen_map (inner_of H) groups). apply pub_output_exit_region; assumption. }
  assert (N : map (fun k => nth (12 + 5 * k) out 0) (seq 0 (Z.to_nat (2 * n * zlen groups)))
              = amounts5 (region out 12 (10 * n * zlen groups))).
  { pose proof (pub_exits_zlen n _ Hn Wf) as LE. rewrite zlen_map in LE. pose proof (zlen_nonneg groups) as HM.
    rewrite (amounts5_as_nth (Z.to_nat (2 * n * zlen groups))) by (rewrite E; unfold zlen in *; lia).
    apply map_ext_in. intros k Ik. apply in_seq in Ik. rewrite nth_region by lia. reflexivity. }
  rewrite N, E. apply (exits_value H HH), F.
Qed.

(* the nullifier region of the public output; its non-zero digests are described by [nonzero_nullifiers] *)
Theorem two_layer_null_region H (HH : H_shape H) n address groups :
  1 <= n -> 2 * n < p -> length address = 4%nat -> Forall (group_ok n) groups ->
  region (pub_output n address (map (inner_of H) groups)) (12 + 10 * n * zlen groups) (4 * n * zlen groups)
  = concat (map (group_nulls H n) groups).
Proof.
  intros Hn Hp La F. pose proof (inners_wf H HH n Hp groups F) as Wf.
  rewrite <- (zlen_map (inner_of H) groups), pub_output_null_region by assumption.
  apply pub_nulls_groups; assumption.
Qed.

Lemma fwd_padding pads s len : Forall (fun d => is_dummy_inner d = true) pads ->
  concat (map (fun q => fwd_region q s len) pads) = repeat 0 (length pads * Z.to_nat len).
Proof.
  induction 1 as [|d r Hd F IH]; cbn [map concat length]; [reflexivity|].
  rewrite IH, (fwd_region_dummy d s len Hd), <- repeat_app. f_equal; lia.
Qed.
Lemma pub_exits_padding n inners pads : Forall (fun d => is_dummy_inner d = true) pads ->
  pub_exits n (inners ++ pads) = pub_exits n inners ++ repeat 0 (length pads * Z.to_nat (10 * n)).
Proof. intros D. unfold pub_exits. rewrite map_app, concat_app, (fwd_padding pads _ _ D). reflexivity. Qed.
Lemma pub_nulls_padding n inners pads : Forall (fun d => is_dummy_inner d = true) pads ->
  pub_nulls n (inners ++ pads) = pub_nulls n inners ++ repeat 0 (length pads * Z.to_nat (4 * n)).
Proof. intros D. unfold pub_nulls. rewrite map_app, concat_app, (fwd_padding pads _ _ D). reflexivity. Qed.

(* inners with a zero block hash appended to the vector append zeros to both regions, which neither the
   slot sums nor the non-zero digests see *)
Theorem padding_adds_nothing n inners pads :
  1 <= n -> Forall (inner_wf n) inners -> Forall (fun d => is_dummy_inner d = true) pads ->
  zsum (amounts5 (pub_exits n (inners ++ pads))) = zsum (amounts5 (pub_exits n inners)) /\
  filter nonzero4 (chunk4 (pub_nulls n (inners ++ pads))) = filter nonzero4 (chunk4 (pub_nulls n inners)).
Proof.
  intros Hn F D.
  pose proof (pub_exits_zlen n inners Hn F) as LE. pose proof (pub_nulls_zlen n inners Hn F) as LN.
  pose proof (zlen_nonneg inners) as HM. split.
  - rewrite pub_exits_padding, (amounts5_app (Z.to_nat (2 * n * zlen inners))) by (try exact D; unfold zlen in *; lia).
    replace (length pads * Z.to_nat (10 * n))%nat with (5 * (length pads * Z.to_nat (2 * n)))%nat by lia.
    rewrite <- (app_nil_r (repeat 0 _)), amounts5_zeros, !zsum_app, zsum_repeat0. cbn. lia.
  - rewrite pub_nulls_padding, (chunk4_app (Z.to_nat (n * zlen inners))) by (try exact D; unfold zlen in *; lia).
    replace (length pads * Z.to_nat (4 * n))%nat with (4 * (length pads * Z.to_nat n))%nat by lia.
    rewrite <- (app_nil_r (repeat 0 _)), chunk4_zeros, !filter_app, filter_nonzero_zeros. apply app_nil_r.
Qed.

(* executable side conditions, for concrete examples *)
Definition group_okb (n : Z) (g : group) : bool :=
  (zlen (fst g) =? n) && (length (snd g) =? length (fst g))%nat && forallb leaf_wfb (fst g)
  && forallb (fun s => fst s <? two32) (groupExits (maskedChildPairs (fst g))).
Lemma group_okb_spec n g : group_okb n g = true -> group_ok n g.
Proof.
  unfold group_okb, group_ok, sums_ok. rewrite !andb_true_iff, Z.eqb_eq, Nat.eqb_eq.
  intros [[[L U] W] S]. split; [exact L|]. split; [exact U|]. split; [|exact S].
  rewrite forallb_forall in W. apply Forall_forall. intros q Iq. apply leaf_wfb_ok, W, Iq.
Qed.
Lemma groups_okb_spec n groups : forallb (group_okb n) groups = true -> Forall (group_ok n) groups.
Proof. rewrite forallb_forall, Forall_forall. intros C g Ig. apply group_okb_spec, C, Ig. Qed.
Lemma nonzero_premise_b (H : list Z -> list Z) (groups : list group) :
  forallb (fun g => negb (batch_real (fst g)) || forallb nonzero4 (selected_nullifiers H (fst g) (snd g))) groups = true ->
  Forall (fun g => batch_real (fst g) = true ->
                   Forall (fun d => d <> zero4) (selected_nullifiers H (fst g) (snd g))) groups.
Proof.
  rewrite forallb_forall, Forall_forall. intros C g Ig R. specialize (C g Ig). rewrite R in C. cbn [negb orb] in C.
  rewrite forallb_forall in C. apply Forall_forall. intros d Id. apply nonzero4_spec, C, Id.
Qed.
