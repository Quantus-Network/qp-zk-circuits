(* Proofs about the Wormhole leaf circuit (model: Leaf.v).

   H is the hash oracle; [hash_wf H] says that it returns four field elements.  [wf_in i] says that the
   assignment [i] of the circuit's virtual targets consists of field elements, in vectors of the fixed lengths.
   Every fragment of the circuit is shown to be determined ([Core.gdet]): satisfiable iff a boolean holds, with
   one reachable output, for an adversarial prover and for the honest generators alike.  The boolean of the
   whole circuit is [leaf_accepts H i]; [leaf_accepts_spec] reads it as the acceptance condition [leaf_ok H i];
   [leaf_rel_iff] puts the two together.  The property theorems C01 - C04 are projections of [leaf_rel_iff]. *)
From V.Base Require Import Common.
From V.Generated Require Import Constants.
From V.Circ Require Import Field Core Prims Gadgets GadgetsProofs Leaf.
Import ListNotations.

Lemma max_depth_pin : MERKLE_MAX_DEPTH = 16. Proof. reflexivity. Qed.
(* n_log = usize::BITS - MAX_DEPTH.leading_zeros() = bit length of MAX_DEPTH *)
Lemma n_log_depth_pin : Z.of_nat n_log_depth = Z.log2 MERKLE_MAX_DEPTH + 1. Proof. reflexivity. Qed.
Lemma digest_felts_pin : DIGEST_LOGS_FELTS = 28. Proof. reflexivity. Qed.

Lemma pow2_32n : 2 ^ Z.of_nat 32 = 4294967296. Proof. reflexivity. Qed.
Lemma pow2_32z : 2 ^ 32 = 4294967296. Proof. reflexivity. Qed.

Definition wf_list (n : nat) (l : list Z) : Prop := length l = n /\ Forall canon l.
Definition wf_level (sibs : list (list Z)) : Prop := length sibs = 3%nat /\ Forall (wf_list 4) sibs.
Definition hash_wf (H : list Z -> list Z) : Prop := forall l, length (H l) = 4%nat /\ Forall canon (H l).

Record wf_in (i : LeafIn) : Prop := mk_wf_in {
  wfi_asset : canon (li_asset i);
  wfi_out1 : canon (li_out1 i);
  wfi_out2 : canon (li_out2 i);
  wfi_fee : canon (li_fee i);
  wfi_to_account : wf_list 4 (li_to_account i);
  wfi_leaf_tc : wf_list 2 (li_leaf_tc i);
  wfi_input_amount : canon (li_input_amount i);
  wfi_root_hash : wf_list 4 (li_root_hash i);
  wfi_depth : canon (li_depth i);
  wfi_is_not_dummy : canon (li_is_not_dummy i);
  wfi_siblings : length (li_siblings i) = Z.to_nat MERKLE_MAX_DEPTH /\ Forall wf_level (li_siblings i);
  wfi_positions : wf_list (Z.to_nat MERKLE_MAX_DEPTH) (li_positions i);
  wfi_nullifier : wf_list 4 (li_nullifier i);
  wfi_null_secret : wf_list 4 (li_null_secret i);
  wfi_null_tc : wf_list 2 (li_null_tc i);
  wfi_unsp_account : wf_list 4 (li_unsp_account i);
  wfi_unsp_secret : wf_list 4 (li_unsp_secret i);
  wfi_exit1 : wf_list 4 (li_exit1 i);
  wfi_exit2 : wf_list 4 (li_exit2 i);
  wfi_block_hash : wf_list 4 (li_block_hash i);
  wfi_parent_hash : wf_list 4 (li_parent_hash i);
  wfi_block_number : canon (li_block_number i);
  wfi_state_root : wf_list 4 (li_state_root i);
  wfi_extrinsics_root : wf_list 4 (li_extrinsics_root i);
  wfi_tree_root : wf_list 4 (li_tree_root i);
  wfi_digest : wf_list (Z.to_nat DIGEST_LOGS_FELTS) (li_digest i)
}.

(* executable version, for the concrete examples *)
Definition wf_listb (n : nat) (l : list Z) : bool := (length l =? n)%nat && forallb is_canon l.
Definition wf_levelb (sibs : list (list Z)) : bool := (length sibs =? 3)%nat && forallb (wf_listb 4) sibs.
Definition wf_inb (i : LeafIn) : bool :=
  forallb is_canon [li_asset i; li_out1 i; li_out2 i; li_fee i; li_input_amount i; li_depth i;
                    li_is_not_dummy i; li_block_number i] &&
  forallb (wf_listb 4) [li_to_account i; li_root_hash i; li_nullifier i; li_null_secret i; li_unsp_account i;
                        li_unsp_secret i; li_exit1 i; li_exit2 i; li_block_hash i; li_parent_hash i;
                        li_state_root i; li_extrinsics_root i; li_tree_root i] &&
  forallb (wf_listb 2) [li_leaf_tc i; li_null_tc i] &&
  ((length (li_siblings i) =? Z.to_nat MERKLE_MAX_DEPTH)%nat && forallb wf_levelb (li_siblings i)) &&
  wf_listb (Z.to_nat MERKLE_MAX_DEPTH) (li_positions i) &&
  wf_listb (Z.to_nat DIGEST_LOGS_FELTS) (li_digest i).

Lemma andb_iff (a b : bool) (A B : Prop) : (a = true <-> A) -> (b = true <-> B) -> (a && b = true <-> A /\ B).
Proof. intros <- <-. apply andb_true_iff. Qed.

Lemma wf_listb_spec n l : wf_listb n l = true <-> wf_list n l.
Proof. apply andb_iff; [apply Nat.eqb_eq|apply forallb_Forall_iff; intros; apply is_canon_spec]. Qed.
Lemma wf_levelb_spec s : wf_levelb s = true <-> wf_level s.
Proof. apply andb_iff; [apply Nat.eqb_eq|apply forallb_Forall_iff; intros; apply wf_listb_spec]. Qed.

(* splits a hypothesis [b1 && .. && bn = true], whatever the nesting, into [bi = true] *)
Ltac split_andb W :=
  lazymatch type of W with
  | _ && _ = true => let A := fresh in let B := fresh in
                     apply andb_prop in W; destruct W as [A B]; split_andb A; split_andb B
  | _ => idtac
  end.

Lemma wf_inb_sound i : wf_inb i = true -> wf_in i.
Proof.
  unfold wf_inb. cbn [forallb]. intros W. split_andb W.
  constructor;
    first [apply is_canon_spec|apply wf_listb_spec
          |split; [apply Nat.eqb_eq|apply (forallb_Forall_iff wf_levelb); [intros; apply wf_levelb_spec|]]];
    assumption.
Qed.

(* the padding of unused levels *)
Lemma zero_level_wf : wf_level [[0; 0; 0; 0]; [0; 0; 0; 0]; [0; 0; 0; 0]].
Proof.
  assert (Z4 : wf_list 4 [0; 0; 0; 0]) by (split; [reflexivity|repeat constructor; apply canon_0]).
  split; [reflexivity|]. do 3 (constructor; [exact Z4|]). constructor.
Qed.

Lemma map3_as_map2 (f g : Z -> Z -> Z) cs : forall xs ys,
  map3 (fun c a b => f c (g a b)) cs xs ys = map2 f cs (map2 g xs ys).
Proof.
  unfold map3, map2. induction cs as [|c cs IH]; intros xs ys; [reflexivity|].
  destruct xs as [|x xs]; [reflexivity|]. destruct ys as [|y ys]; [reflexivity|].
  cbn [combine map]. rewrite IH. reflexivity.
Qed.

Lemma map2_select_b (b : bool) n x y : wf_list n x -> wf_list n y -> map2 (g_select (b2z b)) x y = if b then x else y.
Proof.
  intros [Lx Fx] [Ly Fy]. rewrite <- Ly in Lx. clear Ly. revert y Lx Fy. unfold map2.
  induction Fx as [|a x Ca Fx IH]; intros [|c y] L Fy; try discriminate L.
  - destruct b; reflexivity.
  - inversion Fy; subst. cbn [combine map]. rewrite IH, g_select_b by (try assumption; injection L; auto).
    destruct b; reflexivity.
Qed.

Lemma map3_select_b (b1 b0 : bool) n c x y : wf_list n c -> wf_list n x -> wf_list n y ->
  map3 (fun c a b => g_select (b2z b1) c (g_select (b2z b0) a b)) c x y = if b1 then c else if b0 then x else y.
Proof.
  intros Wc Wx Wy. rewrite map3_as_map2, (map2_select_b b0 n x y) by assumption.
  apply (map2_select_b b1 n); [assumption|destruct b0; assumption].
Qed.

(* the tree walk, as a function: the three sorted siblings with the running hash inserted at index [pos] *)
Definition insert_at (pos : Z) (cur : list Z) (sibs : list (list Z)) : list (list Z) :=
  firstn (Z.to_nat pos) sibs ++ cur :: skipn (Z.to_nat pos) sibs.

Fixpoint fold_insert (H : list Z -> list Z) (cur : list Z) (levels : list (list (list Z) * Z)) : list Z :=
  match levels with
  | [] => cur
  | (sibs, pos) :: r => fold_insert H (H (concat (insert_at pos cur sibs))) r
  end.

Lemma concat4 (a b c d : list Z) : concat [a; b; c; d] = a ++ b ++ c ++ d.
Proof. cbn [concat]. rewrite app_nil_r. reflexivity. Qed.

(* the four select-built slots of a level are the insertion at [pos] *)
Lemma children_spec (pos : Z) cur sibs : wf_list 4 cur -> wf_level sibs -> 0 <= pos < 4 ->
  map2 (g_select (b2z (pos =? 0))) cur (nth 0 sibs []) ++
  map3 (fun c a b => g_select (b2z (pos =? 1)) c (g_select (b2z (pos =? 0)) a b)) cur (nth 0 sibs []) (nth 1 sibs []) ++
  map3 (fun c a b => g_select (b2z (pos =? 2)) c (g_select (g_or (b2z (pos =? 0)) (b2z (pos =? 1))) a b))
       cur (nth 1 sibs []) (nth 2 sibs []) ++
  map2 (g_select (b2z (pos =? 3))) cur (nth 2 sibs [])
  = concat (insert_at pos cur sibs).
Proof.
  intros Wc [L F] Hp. destruct sibs as [|s0 [|s1 [|s2 [|? ?]]]]; try discriminate L.
  rewrite !Forall_cons_iff in F. destruct F as (W0 & W1 & W2 & _). cbn [nth].
  rewrite g_or_b, !(map2_select_b _ 4), !(map3_select_b _ _ 4) by assumption.
  assert (Cs : pos = 0 \/ pos = 1 \/ pos = 2 \/ pos = 3) by lia.
  destruct Cs as [->|[->|[->| ->]]]; symmetry; apply concat4.
Qed.

Lemma fold_insert_wf H : hash_wf H -> forall levels cur, wf_list 4 cur -> wf_list 4 (fold_insert H cur levels).
Proof.
  intros Hwf. induction levels as [|[sibs pos] r IH]; intros cur W; cbn [fold_insert]; [exact W|].
  apply IH. exact (Hwf _).
Qed.

Definition all_eqb (xs ys : list Z) : bool := forallb (fun xy => fst xy =? snd xy) (combine xs ys).
Definition gated_ok (xs ys : list Z) (flag : Z) : bool :=
  forallb (fun xy => fmul (fsub (fst xy) (snd xy)) flag =? 0) (combine xs ys).

(* a test of pairs that decides equality on [P] decides, over [combine], equality of vectors of one length *)
Lemma forallb_combine_eq {A} (f : A * A -> bool) (P : A -> Prop) :
  (forall x y, P x -> P y -> (f (x, y) = true <-> x = y)) ->
  forall xs ys, length xs = length ys -> Forall P xs -> Forall P ys -> (forallb f (combine xs ys) = true <-> xs = ys).
Proof.
  intros E xs ys L Fx. revert ys L. induction Fx as [|x xr Px Fx IH]; intros [|y yr] L Fy; try discriminate L.
  - cbn. tauto.
  - inversion Fy; subst. cbn [combine forallb]. rewrite andb_true_iff, E, IH by (auto; injection L; auto).
    split; [intros [-> ->]; reflexivity|intros Q; inversion Q; tauto].
Qed.

Lemma all_eqb_spec n xs ys : wf_list n xs -> wf_list n ys -> (all_eqb xs ys = true <-> xs = ys).
Proof.
  intros [Lx Fx] [Ly Fy]. apply (forallb_combine_eq _ canon); [intros x y _ _; apply Z.eqb_eq|congruence|assumption..].
Qed.

Lemma gated_ok_0 xs ys : gated_ok xs ys 0 = true.
Proof.
  unfold gated_ok. apply forallb_forall. intros xy _. rewrite fmul_0_r. reflexivity.
Qed.

Lemma gated_ok_1 n xs ys : wf_list n xs -> wf_list n ys -> (gated_ok xs ys 1 = true <-> xs = ys).
Proof.
  intros [Lx Fx] [Ly Fy]. apply (forallb_combine_eq _ canon); [|congruence|assumption..].
  intros x y Cx Cy. cbn [fst snd]. rewrite Z.eqb_eq, fmul_1_r, fsub_eq_0 by auto using canon_fsub. reflexivity.
Qed.

Lemma gated_spec n xs ys (d : bool) : wf_list n xs -> wf_list n ys ->
  (gated_ok xs ys (if d then 0 else 1) = true <-> (d = false -> xs = ys)).
Proof.
  intros Wx Wy. destruct d; [rewrite gated_ok_0|rewrite (gated_ok_1 n) by assumption]; intuition congruence.
Qed.

Definition is_dummy_stmt (i : LeafIn) : bool :=
  (at4 (li_block_hash i) 0 =? 0) && (at4 (li_block_hash i) 1 =? 0) &&
  (at4 (li_block_hash i) 2 =? 0) && (at4 (li_block_hash i) 3 =? 0) &&
  (li_out1 i =? 0) && (li_out2 i =? 0).

Lemma is_dummy_stmt_spec i : length (li_block_hash i) = 4%nat ->
  (is_dummy_stmt i = true <-> li_block_hash i = [0; 0; 0; 0] /\ li_out1 i = 0 /\ li_out2 i = 0).
Proof.
  intros L. unfold is_dummy_stmt, at4. destruct (length4_inv _ L) as (b0 & b1 & b2 & b3 & ->). cbn [nth].
  etransitivity; [do 5 (apply andb_iff; [|apply Z.eqb_eq]); apply Z.eqb_eq|].
  split.
  - intros [[[[[-> ->] ->] ->] E1] E2]. split; [reflexivity|split; assumption].
  - intros [E [E1 E2]]. injection E as -> -> -> ->. repeat split; assumption.
Qed.

(* the flag wire computed by connect_shared_targets *)
Definition derived_not_dummy (i : LeafIn) : Z :=
  fsub 1 (g_and (g_and (g_and (b2z (at4 (li_block_hash i) 0 =? 0)) (b2z (at4 (li_block_hash i) 1 =? 0)))
                       (g_and (b2z (at4 (li_block_hash i) 2 =? 0)) (b2z (at4 (li_block_hash i) 3 =? 0))))
                (g_and (b2z (li_out1 i =? 0)) (b2z (li_out2 i =? 0)))).

Lemma derived_not_dummy_spec i : derived_not_dummy i = if is_dummy_stmt i then 0 else 1.
Proof.
  unfold derived_not_dummy, is_dummy_stmt. rewrite !g_and_b, !andb_assoc.
  destruct (_ && _); reflexivity.
Qed.

(* the fee rule: field arithmetic = integer arithmetic.  A difference of small values is small only when it
   did not wrap around. *)
Lemma fsub_lt_iff a b m B : 0 <= a <= m -> 0 <= b <= m -> m + B <= p -> (fsub a b < B <-> b <= a /\ a - b < B).
Proof. unfold fsub, p. lia. Qed.

Lemma fee_rule_arith fee inp o1 o2 :
  0 <= fee < 4294967296 -> 0 <= inp < 4294967296 -> 0 <= o1 < 4294967296 -> 0 <= o2 < 4294967296 ->
  (fsub 10000 fee < 16384 /\
   fsub (fmul inp (fsub 10000 fee)) (fmul (fadd o1 o2) 10000) < 281474976710656)
  <-> (fee <= 10000 /\ (o1 + o2) * 10000 <= inp * (10000 - fee)).
Proof.
  intros Hf Hi H1 H2.
  rewrite (fsub_lt_iff 10000 fee 4294967296), fadd_small, (fmul_small (o1 + o2)) by (unfold p; lia).
  destruct (Z_le_gt_dec fee 10000) as [Le|Gt]; [|lia].
  assert (Hr : 0 <= inp * (10000 - fee) <= 4294967296 * 10000) by nia.
  rewrite (fsub_small 10000 fee), fmul_small, (fsub_lt_iff _ _ (8589934592 * 10000)) by (unfold p; lia). lia.
Qed.

Definition positions_ok (levels : list (list (list Z) * Z)) : bool := forallb (fun lv => snd lv <? 4) levels.

Lemma positions_ok_combine sibs ps : length sibs = length ps ->
  positions_ok (combine sibs ps) = forallb (fun q => q <? 4) ps.
Proof. apply (combine_snd_forallb (fun q => q <? 4)). Qed.

Lemma lt4_spec ps : Forall (fun q => 0 <= q) ps ->
  (forallb (fun q => q <? 4) ps = true <-> Forall (fun q => 0 <= q < 4) ps).
Proof.
  intros F. apply forallb_Forall_iff. intros q Hq. rewrite Forall_forall in F. specialize (F q Hq).
  rewrite Z.ltb_lt. lia.
Qed.

Definition leaf_preimage (i : LeafIn) : list Z :=
  li_to_account i ++ li_leaf_tc i ++ [li_asset i; li_input_amount i].
Definition leaf_levels (i : LeafIn) : list (list (list Z) * Z) := combine (li_siblings i) (li_positions i).
Definition merkle_root (H : list Z -> list Z) (i : LeafIn) : list Z :=
  fold_insert H (H (leaf_preimage i)) (firstn (Z.to_nat (li_depth i)) (leaf_levels i)).

(* acceptance condition, in the order of the builder calls *)
Definition unsp_raw (H : list Z -> list Z) (i : LeafIn) : bool :=
  all_eqb (H (H (UNSPENDABLE_SALT_FELTS ++ li_unsp_secret i))) (li_unsp_account i).

Definition zk_raw (H : list Z -> list Z) (i : LeafIn) : bool :=
  forallb (fun x => x <? 2 ^ Z.of_nat 32)
          (li_leaf_tc i ++ [li_asset i; li_input_amount i; li_out1 i; li_out2 i; li_fee i]) &&
  ((fsub 10000 (li_fee i) <? 2 ^ Z.of_nat 14) &&
  ((fsub (fmul (li_input_amount i) (fsub 10000 (li_fee i))) (fmul (fadd (li_out1 i) (li_out2 i)) 10000)
      <? 2 ^ Z.of_nat 48) &&
  ((li_depth i <? MERKLE_MAX_DEPTH + 1) &&
  (positions_ok (leaf_levels i) &&
   gated_ok (merkle_root H i) (li_root_hash i) (li_is_not_dummy i))))).

Definition shared_raw (H : list Z -> list Z) (i : LeafIn) : bool :=
  all_eqb (li_null_secret i) (li_unsp_secret i) &&
  (all_eqb (li_null_tc i) (li_leaf_tc i) &&
  (all_eqb (li_unsp_account i) (li_to_account i) &&
  ((li_is_not_dummy i =? derived_not_dummy i) &&
  (gated_ok (li_nullifier i) (H (H (NULLIFIER_SALT_FELTS ++ li_null_secret i ++ li_null_tc i)))
            (derived_not_dummy i) &&
  (gated_ok (li_block_hash i) (H (header_preimage i)) (derived_not_dummy i) &&
   gated_ok (li_tree_root i) (li_root_hash i) (derived_not_dummy i)))))).

Definition leaf_accepts (H : list Z -> list Z) (i : LeafIn) : bool :=
  (g_mul_sub (li_is_not_dummy i) (li_is_not_dummy i) (li_is_not_dummy i) =? 0) &&
  (unsp_raw H i &&
  (zk_raw H i &&
  ((li_block_number i <? 2 ^ Z.of_nat 32) &&
   shared_raw H i))).

(* the readable acceptance condition *)
Definition leaf_ok (H : list Z -> list Z) (i : LeafIn) : Prop :=
  (Forall (fun v => v < 2 ^ 32) (li_leaf_tc i) /\ li_asset i < 2 ^ 32 /\ li_input_amount i < 2 ^ 32 /\
   li_out1 i < 2 ^ 32 /\ li_out2 i < 2 ^ 32 /\ li_block_number i < 2 ^ 32) /\
  (li_fee i <= 10000 /\ (li_out1 i + li_out2 i) * 10000 <= li_input_amount i * (10000 - li_fee i)) /\
  (li_depth i <= MERKLE_MAX_DEPTH /\ Forall (fun q => 0 <= q < 4) (li_positions i)) /\
  li_is_not_dummy i = (if is_dummy_stmt i then 0 else 1) /\
  (H (H (UNSPENDABLE_SALT_FELTS ++ li_unsp_secret i)) = li_unsp_account i /\
   li_null_secret i = li_unsp_secret i /\ li_null_tc i = li_leaf_tc i /\ li_unsp_account i = li_to_account i) /\
  (is_dummy_stmt i = false ->
     li_nullifier i = H (H (NULLIFIER_SALT_FELTS ++ li_null_secret i ++ li_null_tc i)) /\
     li_block_hash i = H (header_preimage i) /\
     li_tree_root i = li_root_hash i /\
     merkle_root H i = li_root_hash i).

Section Leaf.
  Variable H : list Z -> list Z.
  Notation rel := (Core.rel H).
  Notation hon := (Core.hon H).
  Notation refines := (Core.refines H).
  Notation gdet := (Core.gdet H).

  (* the output is the public-input vector, for every hash function and every (even ill-formed) assignment *)
  Theorem leaf_public_inputs_post i post : rel (leaf_circuit i) post -> post (leaf_public_inputs i).
  Proof.
    unfold leaf_circuit. cbn [Core.rel]. intros [_ R].
    do 4 apply rel_bind_const in R. exact R.
  Qed.
  Lemma hon_leaf_output i pis : hon (leaf_circuit i) = Some pis -> pis = leaf_public_inputs i.
  Proof.
    unfold leaf_circuit. cbn [Core.hon]. destruct (_ =? 0); [|discriminate].
    intros E. do 4 apply hon_bind_const in E. injection E. auto.
  Qed.

  Lemma gdet_assert_all {A} xs : forall ys (k : Circ A) ok v,
    gdet k ok v -> gdet (assert_all xs ys k) (all_eqb xs ys && ok) v.
  Proof.
    induction xs as [|x xr IH]; intros [|y yr] k ok v G; try exact G. cbn [assert_all].
    eapply gdet_conv; [apply gdet_assert, IH, G|apply andb_assoc|reflexivity].
  Qed.

  Lemma gdet_assert_gated {A} xs flag : forall ys (k : Circ A) ok v,
    gdet k ok v -> gdet (assert_gated xs ys flag k) (gated_ok xs ys flag && ok) v.
  Proof.
    induction xs as [|x xr IH]; intros [|y yr] k ok v G; try exact G. cbn [assert_gated].
    eapply gdet_conv; [apply gdet_assert, IH, G|apply andb_assoc|reflexivity].
  Qed.

  Lemma gdet_range_check_all xs n : Forall canon xs -> (1 <= n <= 63)%nat ->
    gdet (range_check_all xs n) (forallb (fun x => x <? 2 ^ Z.of_nat n) xs) tt.
  Proof.
    intros F Hn. induction F as [|x xs Cx F IH]; cbn [range_check_all forallb]; [apply gdet_ret|].
    eapply gdet_bind; [apply gdet_range_check; assumption|exact IH].
  Qed.

  Lemma gdet_unspendable account secret :
    gdet (unspendable_circuit account secret) (all_eqb (H (H (UNSPENDABLE_SALT_FELTS ++ secret))) account) tt.
  Proof.
    unfold unspendable_circuit. do 2 apply gdet_hash.
    eapply gdet_conv; [apply gdet_assert_all, gdet_ret|apply andb_true_r|reflexivity].
  Qed.

  Lemma gdet_connect_shared i : wf_in i -> gdet (connect_shared i) (shared_raw H i) tt.
  Proof.
    intros W. unfold connect_shared, shared_raw.
    do 3 apply gdet_assert_all.
    do 4 (eapply gdet_dbind; [apply det_is_equal; [apply canon_nth, (wfi_block_hash i W)|apply canon_0]|]).
    eapply gdet_dbind; [apply det_is_equal; [exact (wfi_out1 i W)|apply canon_0]|].
    eapply gdet_dbind; [apply det_is_equal; [exact (wfi_out2 i W)|apply canon_0]|].
    cbv zeta. apply gdet_assert. do 2 apply gdet_hash. apply gdet_assert_gated, gdet_hash, gdet_assert_gated.
    eapply gdet_conv; [apply gdet_assert_gated, gdet_ret|apply andb_true_r|reflexivity].
  Qed.

  (* From here on the hash function matters: the circuits are determined for every H, and for a well-formed H
     the flag (and the output) is the one named in the second part.  Lemmas of this two-part form are named [*_det]. *)
  Lemma merkle_level_det level depth cur sibs pos :
    0 <= level < 32 -> canon depth -> depth < 32 -> canon pos ->
    exists v, gdet (merkle_level level depth cur sibs pos) (pos <? 4) v /\
      (hash_wf H -> wf_list 4 cur -> wf_level sibs -> pos < 4 ->
       v = if level <? depth then H (concat (insert_at pos cur sibs)) else cur).
  Proof.
    intros Hl Cd Hd Cp. unfold merkle_level. change n_log_depth with 5%nat.
    eexists. split.
    - eapply gdet_conv; [| |reflexivity].
      + eapply gdet_bind; [apply gdet_is_const_less_than; [lia|change (2 ^ Z.of_nat 5) with 32; lia|exact Cd]|].
        eapply gdet_bind; [apply gdet_range_check; [exact Cp|lia]|].
        do 4 (eapply gdet_dbind; [apply det_is_equal; [exact Cp|unfold canon, p; lia]|]).
        cbv zeta. apply gdet_hash, gdet_ret.
      + change (2 ^ Z.of_nat 5) with 32. rewrite andb_true_r, (proj2 (Z.ltb_lt depth 32) Hd). reflexivity.
    - intros Hwf Wc Ws Lp. rewrite children_spec by (try assumption; unfold canon in Cp; lia).
      apply (map2_select_b _ 4); [exact (Hwf _)|exact Wc].
  Qed.

  Lemma merkle_walk_det depth : canon depth -> depth < 32 -> forall levels level cur,
    0 <= level -> level + Z.of_nat (length levels) <= 32 -> Forall (fun lv => canon (snd lv)) levels ->
    exists v, gdet (merkle_walk level depth cur levels) (positions_ok levels) v /\
      (hash_wf H -> wf_list 4 cur -> Forall (fun lv => wf_level (fst lv)) levels -> positions_ok levels = true ->
       v = fold_insert H cur (firstn (Z.to_nat (depth - level)) levels)).
  Proof.
    intros Cd Hd. induction levels as [|[sibs pos] r IH]; intros level cur Hl Hlen F.
    - exists cur. split; [apply gdet_ret|]. intros _ _ _ _. rewrite firstn_nil. reflexivity.
    - inversion F as [|? ? Cp Fr]; subst. cbn [snd length] in Cp, Hlen.
      destruct (merkle_level_det level depth cur sibs pos ltac:(lia) Cd Hd Cp) as (c' & G1 & E1).
      destruct (IH (level + 1) c' ltac:(lia) ltac:(lia) Fr) as (v & G2 & E2).
      exists v. split; [exact (gdet_bind H _ _ _ _ _ _ G1 G2)|].
      intros Hwf Wc Ws P. inversion Ws as [|? ? Ws1 Wsr]; subst.
      apply andb_true_iff in P. destruct P as [P1 P2]. apply Z.ltb_lt in P1.
      specialize (E1 Hwf Wc Ws1 P1). subst c'. rewrite E2; try assumption.
      + destruct (Z.ltb_spec level depth) as [Lt|Ge].
        * replace (Z.to_nat (depth - level)) with (S (Z.to_nat (depth - (level + 1)))) by lia. reflexivity.
        * replace (Z.to_nat (depth - level)) with 0%nat by lia.
          replace (Z.to_nat (depth - (level + 1))) with 0%nat by lia. reflexivity.
      + destruct (level <? depth); [exact (Hwf _)|exact Wc].
  Qed.

  (* depth bound, walk and gated root binding: the part of zk_merkle_circuit that consumes the tree path
     (Sys/Merkle.v names this program [path_circuit]) *)
  Lemma path_tail_det depth leaf sibs ps root flag :
    canon depth -> Forall canon ps -> (length sibs <= 32)%nat ->
    exists ok,
      gdet (_ <- enforce_target_less_than_const depth (MERKLE_MAX_DEPTH + 1) n_log_depth ;;
            root' <- merkle_walk 0 depth leaf (combine sibs ps) ;;
            assert_gated root' root flag (Ret tt)) ok tt /\
      (hash_wf H -> wf_list 4 leaf -> Forall wf_level sibs ->
       ok = (depth <? MERKLE_MAX_DEPTH + 1) &&
            (positions_ok (combine sibs ps) &&
             gated_ok (fold_insert H leaf (firstn (Z.to_nat depth) (combine sibs ps))) root flag)).
  Proof.
    intros Cd Fp Ls.
    assert (Gd : gdet (enforce_target_less_than_const depth (MERKLE_MAX_DEPTH + 1) n_log_depth)
                      (depth <? MERKLE_MAX_DEPTH + 1) tt).
    { apply gdet_enforce_target_less_than_const; [unfold n_log_depth; lia|rewrite max_depth_pin; lia| |exact Cd].
      rewrite max_depth_pin. change (2 ^ Z.of_nat n_log_depth) with 32. lia. }
    destruct (Z.ltb_spec depth (MERKLE_MAX_DEPTH + 1)) as [Ld|Ld].
    - rewrite max_depth_pin in Ld.
      destruct (merkle_walk_det depth Cd ltac:(lia) (combine sibs ps) 0 leaf ltac:(lia)) as (r & Gw & Er).
      { rewrite combine_length. lia. }
      { apply combine_snd_Forall, Fp. }
      eexists. split.
      + eapply gdet_bind; [exact Gd|]. eapply gdet_bind; [exact Gw|]. apply gdet_assert_gated, gdet_ret.
      + intros Hwf Wl Ws. rewrite andb_true_r. destruct (positions_ok (combine sibs ps)) eqn:P; [|reflexivity].
        rewrite (Er Hwf Wl (combine_fst_Forall _ _ _ Ws) eq_refl), Z.sub_0_r. reflexivity.
    - exists false. split; [|reflexivity]. apply gdet_bind_false with (v := tt). exact Gd.
  Qed.

  Lemma zk_merkle_det i : wf_in i ->
    exists ok, gdet (zk_merkle_circuit i) ok tt /\ (hash_wf H -> ok = zk_raw H i).
  Proof.
    intros W.
    destruct (path_tail_det (li_depth i) (H (leaf_preimage i)) (li_siblings i) (li_positions i) (li_root_hash i)
                (li_is_not_dummy i) (wfi_depth i W) (proj2 (wfi_positions i W))) as (t & Gt & Et).
    { rewrite (proj1 (wfi_siblings i W)), max_depth_pin. cbn. lia. }
    eexists. split.
    - unfold zk_merkle_circuit. cbv zeta.
      eapply gdet_bind; [apply gdet_range_check_all; [|lia]|].
      { apply Forall_app. split; [exact (proj2 (wfi_leaf_tc i W))|]. repeat constructor; apply W. }
      eapply gdet_bind; [apply gdet_range_check; [apply canon_fsub|lia]|].
      eapply gdet_bind; [apply gdet_range_check; [apply canon_fsub|lia]|].
      apply gdet_hash. exact Gt.
    - intros Hwf. rewrite (Et Hwf (Hwf _) (proj2 (wfi_siblings i W))). reflexivity.
  Qed.

  Lemma leaf_det i : wf_in i ->
    exists ok, gdet (leaf_circuit i) ok (leaf_public_inputs i) /\ (hash_wf H -> ok = leaf_accepts H i).
  Proof.
    intros W. destruct (zk_merkle_det i W) as (zk & Gz & Ez).
    eexists. split.
    - unfold leaf_circuit. apply gdet_assert.
      eapply gdet_bind; [apply gdet_unspendable|].
      eapply gdet_bind; [exact Gz|].
      eapply gdet_bind; [apply gdet_range_check; [exact (wfi_block_number i W)|lia]|].
      eapply gdet_bind_det; [apply gdet_connect_shared, W|apply det_ret].
    - intros Hwf. rewrite (Ez Hwf). reflexivity.
  Qed.

  (* the whole leaf circuit has no witness freedom: whatever an adversarial prover can satisfy is exactly
     what the honest generators produce (needs no assumption on the hash function) *)
  Theorem leaf_refines i : wf_in i -> refines (leaf_circuit i).
  Proof. intros W. destruct (leaf_det i W) as (ok & G & _). exact (gdet_refines H _ _ _ G). Qed.

  Theorem hon_leaf_spec i : hash_wf H -> wf_in i ->
    hon (leaf_circuit i) = if leaf_accepts H i then Some (leaf_public_inputs i) else None.
  Proof. intros Hwf W. destruct (leaf_det i W) as (ok & [_ E] & A). rewrite <- (A Hwf). exact E. Qed.

  Section Accepted.
  Hypothesis Hwf : hash_wf H.
  Variable i : LeafIn.
  Hypothesis W : wf_in i.

  Lemma zk_raw_spec :
    zk_raw H i = true <->
    (Forall (fun v => v < 2 ^ 32) (li_leaf_tc i) /\ li_asset i < 2 ^ 32 /\ li_input_amount i < 2 ^ 32 /\
     li_out1 i < 2 ^ 32 /\ li_out2 i < 2 ^ 32) /\
    (li_fee i <= 10000 /\ (li_out1 i + li_out2 i) * 10000 <= li_input_amount i * (10000 - li_fee i)) /\
    (li_depth i <= MERKLE_MAX_DEPTH /\ Forall (fun q => 0 <= q < 4) (li_positions i)) /\
    gated_ok (merkle_root H i) (li_root_hash i) (li_is_not_dummy i) = true.
  Proof.
    unfold zk_raw, leaf_levels. rewrite forallb_app. cbn [forallb]. rewrite andb_true_r.
    etransitivity.
    { apply andb_iff; [apply andb_iff; [apply forallb_Forall_iff; intros; apply Z.ltb_lt|]|].
      { do 4 (apply andb_iff; [apply Z.ltb_lt|]). apply Z.ltb_lt. }
      do 3 (apply andb_iff; [apply Z.ltb_lt|]). apply andb_iff; [|reflexivity].
      rewrite positions_ok_combine by (rewrite (proj1 (wfi_siblings i W)); symmetry; apply W).
      apply lt4_spec. eapply Forall_impl; [|apply W]. intros q Cq. apply Cq. }
    change (2 ^ Z.of_nat 32) with 4294967296. change (2 ^ 32) with 4294967296.
    (* what is left is propositional, given the fee rule and two facts of order *)
    pose proof (fee_rule_arith (li_fee i) (li_input_amount i) (li_out1 i) (li_out2 i)) as Rule.
    pose proof (proj1 (wfi_fee i W)). pose proof (proj1 (wfi_input_amount i W)).
    pose proof (proj1 (wfi_out1 i W)). pose proof (proj1 (wfi_out2 i W)).
    assert (Rf : li_fee i <= 10000 -> li_fee i < 4294967296) by lia.
    assert (Dp : li_depth i < MERKLE_MAX_DEPTH + 1 <-> li_depth i <= MERKLE_MAX_DEPTH) by lia.
    tauto.
  Qed.

  Lemma shared_raw_spec :
    shared_raw H i = true <->
    li_null_secret i = li_unsp_secret i /\ li_null_tc i = li_leaf_tc i /\ li_unsp_account i = li_to_account i /\
    li_is_not_dummy i = (if is_dummy_stmt i then 0 else 1) /\
    (is_dummy_stmt i = false -> li_nullifier i = H (H (NULLIFIER_SALT_FELTS ++ li_null_secret i ++ li_null_tc i))) /\
    (is_dummy_stmt i = false -> li_block_hash i = H (header_preimage i)) /\
    (is_dummy_stmt i = false -> li_tree_root i = li_root_hash i).
  Proof.
    unfold shared_raw. rewrite derived_not_dummy_spec.
    do 3 (apply andb_iff; [eapply all_eqb_spec; apply W|]). apply andb_iff; [apply Z.eqb_eq|].
    do 2 (apply andb_iff; [apply (gated_spec 4); first [apply W|apply Hwf]|]). apply (gated_spec 4); apply W.
  Qed.

  Theorem leaf_accepts_spec : leaf_accepts H i = true <-> leaf_ok H i.
  Proof.
    etransitivity.
    { unfold leaf_accepts, unsp_raw. apply andb_iff; [apply Z.eqb_eq|].
      apply andb_iff; [apply (all_eqb_spec 4); [apply Hwf|apply W]|]. apply andb_iff; [apply zk_raw_spec|].
      apply andb_iff; [apply Z.ltb_lt|apply shared_raw_spec]. }
    unfold leaf_ok. change (2 ^ Z.of_nat 32) with (2 ^ 32).
    (* the flag equation, on both sides, gives the booleanity of the flag and turns its gate into a premise *)
    assert (Fl : li_is_not_dummy i = (if is_dummy_stmt i then 0 else 1) ->
                 g_mul_sub (li_is_not_dummy i) (li_is_not_dummy i) (li_is_not_dummy i) = 0 /\
                 (gated_ok (merkle_root H i) (li_root_hash i) (li_is_not_dummy i) = true <->
                  (is_dummy_stmt i = false -> merkle_root H i = li_root_hash i))).
    { intros ->. split; [destruct (is_dummy_stmt i); reflexivity|].
      apply (gated_spec 4); [apply fold_insert_wf; [exact Hwf|exact (Hwf _)]|apply W]. }
    tauto.
  Qed.

  (* what an arbitrary prover can satisfy = the acceptance condition, and nothing else *)
  Theorem leaf_rel_iff post :
    rel (leaf_circuit i) post <-> leaf_ok H i /\ post (leaf_public_inputs i).
  Proof.
    destruct (leaf_det i W) as (ok & [R _] & A). rewrite R, (A Hwf), leaf_accepts_spec. reflexivity.
  Qed.

  Theorem hon_leaf_iff : hon (leaf_circuit i) = Some (leaf_public_inputs i) <-> leaf_ok H i.
  Proof.
    rewrite (hon_leaf_spec i Hwf W), <- leaf_accepts_spec.
    destruct (leaf_accepts H i); split; try reflexivity; intros E; discriminate E.
  Qed.

  Lemma leaf_ok_of_rel post : rel (leaf_circuit i) post -> leaf_ok H i.
  Proof. intros R. apply leaf_rel_iff in R. exact (proj1 R). Qed.

  Theorem bindings_enforced post : rel (leaf_circuit i) post -> is_dummy_stmt i = false ->
    (li_nullifier i = H (H (NULLIFIER_SALT_FELTS ++ li_null_secret i ++ li_null_tc i)) /\
     li_to_account i = H (H (UNSPENDABLE_SALT_FELTS ++ li_null_secret i)) /\
     li_leaf_tc i = li_null_tc i) /\
    li_block_hash i = H (header_preimage i) /\
    li_tree_root i =
      fold_insert H (H (li_to_account i ++ li_leaf_tc i ++ [li_asset i; li_input_amount i]))
                  (firstn (Z.to_nat (li_depth i)) (combine (li_siblings i) (li_positions i))).
  Proof.
    intros R D. apply leaf_ok_of_rel in R.
    destruct R as (_ & _ & _ & _ & (U & S1 & S2 & S3) & B). destruct (B D) as (N & Bh & Tr & Mr).
    split; [repeat split; congruence|]. split; [exact Bh|]. rewrite Tr, <- Mr. reflexivity.
  Qed.

  (* what a dummy statement still has to satisfy - nothing about nullifier, header or roots *)
  Definition dummy_conditions : Prop :=
    li_is_not_dummy i = 0 /\
    (li_asset i < 2 ^ 32 /\ li_input_amount i < 2 ^ 32 /\ li_block_number i < 2 ^ 32 /\
     Forall (fun v => v < 2 ^ 32) (li_leaf_tc i)) /\
    li_fee i <= 10000 /\
    (li_depth i <= MERKLE_MAX_DEPTH /\ Forall (fun q => 0 <= q < 4) (li_positions i)) /\
    (li_unsp_account i = H (H (UNSPENDABLE_SALT_FELTS ++ li_unsp_secret i)) /\
     li_to_account i = li_unsp_account i /\ li_null_secret i = li_unsp_secret i /\ li_null_tc i = li_leaf_tc i).

  Lemma dummy_ok_iff : is_dummy_stmt i = true -> (leaf_ok H i <-> dummy_conditions).
  Proof.
    intros D. destruct (proj1 (is_dummy_stmt_spec i (proj1 (wfi_block_hash i W))) D) as (_ & O1 & O2).
    unfold leaf_ok, dummy_conditions. rewrite D, O1, O2.
    (* with both outputs zero the fee rule asks for 0 <= input * (10000 - fee) *)
    assert (Rule : li_fee i <= 10000 -> (0 + 0) * 10000 <= li_input_amount i * (10000 - li_fee i)).
    { intros Fee. apply Z.mul_nonneg_nonneg; [apply (wfi_input_amount i W)|lia]. }
    intuition (congruence || reflexivity).
  Qed.

  Theorem leaf_sat : hon (leaf_circuit i) = Some (leaf_public_inputs i) ->
    rel (leaf_circuit i) (fun o => o = leaf_public_inputs i).
  Proof. intros E. apply (leaf_refines i W). rewrite E. reflexivity. Qed.
  End Accepted.
End Leaf.

Lemma public_inputs_length i : wf_in i -> length (leaf_public_inputs i) = 21%nat.
Proof.
  intros W. unfold leaf_public_inputs. rewrite !app_length.
  rewrite (proj1 (wfi_nullifier i W)), (proj1 (wfi_exit1 i W)), (proj1 (wfi_exit2 i W)),
    (proj1 (wfi_block_hash i W)). reflexivity.
Qed.

(* concrete statements for the non-vacuity examples *)
Definition H0 : list Z -> list Z := fun l => [1 + (fold_left Z.add l 0) mod 1000; 2; 3; 4].

Lemma H0_wf : hash_wf H0.
Proof.
  intros l. split; [reflexivity|]. unfold H0.
  repeat constructor; unfold canon, p; try lia.
Qed.

Definition ex_level0 : list (list Z) := [[1; 1; 1; 1]; [2; 2; 2; 2]; [3; 3; 3; 3]].
Definition ex_zero_level : list (list Z) := [[0; 0; 0; 0]; [0; 0; 0; 0]; [0; 0; 0; 0]].

(* a depth-1 statement built to be accepted; the knobs break one thing at a time *)
Definition ex_build (out1 out2 fee input depth flag : Z) (zero_block_hash : bool)
           (nullifier_override tree_root_override : option (list Z)) : LeafIn :=
  let secret := [11; 12; 13; 14] in
  let tc := [5; 0] in
  let asset := 0 in
  let account := H0 (H0 (UNSPENDABLE_SALT_FELTS ++ secret)) in
  let nullifier := H0 (H0 (NULLIFIER_SALT_FELTS ++ secret ++ tc)) in
  let sibs := ex_level0 :: repeat ex_zero_level 15 in
  let positions := 2 :: repeat 0 15 in
  let root := fold_insert H0 (H0 (account ++ tc ++ [asset; input]))
                          (firstn (Z.to_nat depth) (combine sibs positions)) in
  let tree_root := match tree_root_override with Some r => r | None => root end in
  let parent := [21; 22; 23; 24] in
  let number := 1000 in
  let state := [31; 32; 33; 34] in
  let extr := [41; 42; 43; 44] in
  let digest := repeat 7 28 in
  let block_hash := if zero_block_hash then [0; 0; 0; 0]
                    else H0 (parent ++ [number] ++ state ++ extr ++ tree_root ++ digest) in
  mkLeafIn asset out1 out2 fee account tc input
           root depth flag sibs positions
           (match nullifier_override with Some n => n | None => nullifier end) secret tc
           account secret
           [51; 52; 53; 54] [61; 62; 63; 64]
           block_hash parent number state extr tree_root digest.

Definition ex_real : LeafIn := ex_build 40 9 10 50 1 1 false None None.
Definition ex_real_depth0 : LeafIn := ex_build 40 9 10 50 0 1 false None None.
(* dummy: zero block hash, zero outputs, random nullifier, header tree root unrelated to the proof's root *)
Definition ex_dummy : LeafIn := ex_build 0 0 10 50 1 0 true (Some [9; 9; 9; 9]) (Some [6; 6; 6; 6]).
Definition ex_bad_fee : LeafIn := ex_build 40 9 10001 50 1 1 false None None.
Definition ex_bad_rule : LeafIn := ex_build 45 9 10 50 1 1 false None None.
Definition ex_bad_range : LeafIn := ex_build 4294967296 0 0 4294967295 1 1 false None None.
Definition ex_bad_nullifier : LeafIn := ex_build 40 9 10 50 1 1 false (Some [9; 9; 9; 9]) None.
Definition ex_bad_tree_root : LeafIn := ex_build 40 9 10 50 1 1 false None (Some [6; 6; 6; 6]).
Definition ex_bad_depth : LeafIn := ex_build 40 9 10 50 17 1 false None None.
Definition ex_flag_lie : LeafIn := ex_build 40 9 10 50 1 0 false None None.
Definition ex_dummy_flag_lie : LeafIn := ex_build 0 0 10 50 1 1 true (Some [9; 9; 9; 9]) (Some [6; 6; 6; 6]).
(* zero block hash but a non-zero output: not a dummy, every binding applies *)
Definition ex_zero_hash_with_output : LeafIn := ex_build 40 9 10 50 1 1 true None None.

Lemma ex_wf o1 o2 fee inp depth flag z n r :
  wf_inb (ex_build o1 o2 fee inp depth flag z n r) = true -> wf_in (ex_build o1 o2 fee inp depth flag z n r).
Proof. apply wf_inb_sound. Qed.

Lemma ex_real_wf : wf_in ex_real.
Proof. apply wf_inb_sound. vm_compute. reflexivity. Qed.
Lemma ex_real_not_dummy : is_dummy_stmt ex_real = false.
Proof. vm_compute. reflexivity. Qed.
Lemma ex_real_accepted : hon H0 (leaf_circuit ex_real) = Some (leaf_public_inputs ex_real).
Proof. vm_compute. reflexivity. Qed.
Lemma ex_dummy_wf : wf_in ex_dummy.
Proof. apply wf_inb_sound. vm_compute. reflexivity. Qed.
Lemma ex_dummy_is_dummy : is_dummy_stmt ex_dummy = true.
Proof. reflexivity. Qed.
Lemma ex_dummy_accepted : hon H0 (leaf_circuit ex_dummy) = Some (leaf_public_inputs ex_dummy).
Proof. vm_compute. reflexivity. Qed.

(* honest failure = no witness at all *)
Lemma leaf_unsat_b H i : wf_inb i = true -> hon H (leaf_circuit i) = None -> forall post, ~ rel H (leaf_circuit i) post.
Proof. intros Wb. exact (refines_honest_fails H _ (leaf_refines H i (wf_inb_sound i Wb))). Qed.
