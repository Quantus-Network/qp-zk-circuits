(* The public-batch wrapper (model: PublicBatch.v = build_public_batch_constraints) against its
   specification (Spec/LeanPort.v: pub_compat / pub_output).

   For every hash H (unused: the wrapper does not hash), every n >= 1, every address and every vector of
   well-formed inner statements, [gdet_public_batch]: the wrapper is satisfiable iff [pub_compat], and then
   [pub_output] is its only output, also the honest one.  Then the layout of [pub_output] (header, one
   segment per inner in each region) and the structure of [pub_compat]. *)
From V.Base Require Import Common.
From V.Generated Require Import Constants.
From V.Circ Require Import Field Core Prims Gadgets GadgetsProofs Sorting PrivateBatch PublicBatch PrivateBatchProofs.
From V.Spec Require Import LeanPort LeanPortFacts.
Import ListNotations.

Lemma map_combine_map {A B C} (f : A -> B) (g : B * A -> C) l :
  map g (combine (map f l) l) = map (fun x => g (f x, x)) l.
Proof. induction l as [|x l IH]; cbn [map combine]; [reflexivity|rewrite IH; reflexivity]. Qed.
Lemma map_const_repeat {A B} (b : B) (l : list A) : map (fun _ => b) l = repeat b (length l).
Proof. induction l as [|x l IH]; cbn [map length repeat]; [reflexivity|rewrite IH; reflexivity]. Qed.
Lemma nth_map_in {A B} (f : A -> B) l i dA dB : (i < length l)%nat -> nth i (map f l) dB = f (nth i l dA).
Proof. intros Hi. rewrite (nth_indep _ dB (f dA)) by (rewrite map_length; exact Hi). apply map_nth. Qed.
Lemma find_filter {A} (f : A -> bool) l : find f (filter f l) = find f l.
Proof.
  induction l as [|x l IH]; cbn [filter find]; [reflexivity|].
  destruct (f x) eqn:E; cbn [find]; [rewrite E; reflexivity|exact IH].
Qed.

Lemma inner_wf_canon n pis : inner_wf n pis -> Forall canon pis.
Proof. intros [_ F]; exact F. Qed.
Lemma inner_wf_fields n pis : 1 <= n -> inner_wf n pis ->
  canon (in_asset pis) /\ canon (in_fee pis) /\ canon (in_bn pis) /\ good4 (in_bh pis).
Proof.
  intros Hn [L F]. split; [|split; [|split]]; try (apply canon_nth; exact F).
  apply good4_pi4; [exact F|]. unfold zlen in L. change (Z.to_nat PR_OUT_BLOCK_HASH_OFFSET) with 3%nat. lia.
Qed.

(* the consistency predicate of one inner against given references *)
Definition pub_cons_ok (a f : Z) (bh : list Z) (pis : list Z) : bool :=
  is_dummy_inner pis || ((in_asset pis =? a) && (in_fee pis =? f) && list_eqb (in_bh pis) bh).
Definition pub_dflag (pis : list Z) : Z := b2z (is_dummy_inner pis).

Lemma pub_cons_ok_iff a f bh pis :
  pub_cons_ok a f bh pis = true <->
  (is_real_inner pis = true -> in_asset pis = a /\ in_fee pis = f /\ in_bh pis = bh).
Proof.
  unfold pub_cons_ok, is_real_inner. destruct (is_dummy_inner pis); cbn [orb negb].
  - split; [discriminate|reflexivity].
  - rewrite !andb_true_iff, !Z.eqb_eq, list_eqb_spec. tauto.
Qed.

(* the references: those of a real member, or zeros when every member is a dummy *)
Lemma pub_ref_cases inners :
  (exists q, In q inners /\ is_real_inner q = true /\ pub_ref inners = (in_asset q, in_fee q, in_bh q, in_bn q)) \/
  ((forall q, In q inners -> is_real_inner q = false) /\ pub_ref inners = (0, 0, zero4, 0)).
Proof.
  unfold pub_ref. destruct (find is_real_inner inners) as [q|] eqn:Ef.
  - left. apply find_some in Ef. exists q. split; [apply Ef|]. split; [apply Ef|reflexivity].
  - right. split; [intros q Iq; exact (find_none _ _ Ef q Iq)|reflexivity].
Qed.
Lemma pub_ref_good n inners a f bh bn : 1 <= n -> Forall (inner_wf n) inners -> pub_ref inners = (a, f, bh, bn) ->
  canon a /\ canon f /\ canon bn /\ good4 bh.
Proof.
  intros Hn F E. destruct (pub_ref_cases inners) as [(q & Iq & _ & Eq)|(_ & Eq)]; rewrite Eq in E; inversion E; subst.
  - apply (inner_wf_fields n); [exact Hn|]. rewrite Forall_forall in F. apply F, Iq.
  - repeat split; try apply canon_0; apply good4_zero4.
Qed.
Lemma pub_ref_filter inners : pub_ref (filter is_real_inner inners) = pub_ref inners.
Proof. unfold pub_ref. rewrite find_filter. reflexivity. Qed.

(* the header and the two forwarded regions of the specification output; [pub_seg] is either region *)
Definition pub_header (n : Z) (address : list Z) (inners : list (list Z)) : list Z :=
  let '(asset_ref, fee_ref, bh_ref, bn_ref) := pub_ref inners in
  address ++ [asset_ref; fee_ref] ++ bh_ref ++ [bn_ref; 2 * n * zlen inners].
Definition pub_exits (n : Z) (inners : list (list Z)) : list Z :=
  concat (map (fun q => fwd_region q 8 (10 * n)) inners).
Definition pub_nulls (n : Z) (inners : list (list Z)) : list Z :=
  concat (map (fun q => fwd_region q (8 + 10 * n) (4 * n)) inners).
Definition pub_seg (s len : Z) (inners : list (list Z)) : list Z :=
  concat (map (fun q => fwd_region q s len) inners).

Lemma pub_output_split n address inners :
  pub_output n address inners = pub_header n address inners ++ pub_exits n inners ++ pub_nulls n inners.
Proof.
  unfold pub_output, pub_header, pub_exits, pub_nulls. destruct (pub_ref inners) as [[[a f] bh] bn].
  rewrite <- !app_assoc. reflexivity.
Qed.

Lemma pub_compat_cons_ok inners :
  pub_compat inners =
  let '(a, f, bh, _) := pub_ref inners in forallb (pub_cons_ok a f bh) inners.
Proof. unfold pub_compat. destruct (pub_ref inners) as [[[a f] bh] bn]. reflexivity. Qed.

Section PublicBatchProofs.
  Variable H : list Z -> list Z.
  Variable n : Z.
  Hypothesis Hn : 1 <= n.

  Lemma det_pub_dummy_flags inners : Forall (inner_wf n) inners ->
    det H (pub_dummy_flags inners) (map pub_dflag inners).
  Proof.
    intros F. apply det_cmapM. eapply Forall_impl; [|exact F]. intros q W.
    apply det_bde; [apply (inner_wf_fields n q Hn W)|apply good4_zero4].
  Qed.

  (* the first-real prefix scan, started with the flag [f] and arbitrary references *)
  Lemma pub_scan_ref_spec inners : Forall (inner_wf n) inners ->
    forall (f : bool) bref bn asset fee,
      good4 bref -> canon bn -> canon asset -> canon fee ->
      pub_scan_ref inners (map pub_dflag inners) (b2z f) bref bn asset fee =
      if f then (bref, bn, asset, fee)
      else match find is_real_inner inners with
           | Some q => (in_bh q, in_bn q, in_asset q, in_fee q)
           | None => (bref, bn, asset, fee)
           end.
  Proof.
    induction 1 as [|pis r W F IH]; intros f bref bn asset fee (Lb & Cb) Cbn Ca Cf.
    - cbn [map pub_scan_ref find]. destruct f; reflexivity.
    - cbn [map pub_scan_ref find]. change (pub_dflag pis) with (b2z (is_dummy_inner pis)).
      rewrite !g_not_b, g_and_b, g_or_b.
      change (map2z (g_select (b2z (negb (is_dummy_inner pis) && negb f))) (in_bh pis) bref)
        with (select_halves (b2z (negb (is_dummy_inner pis) && negb f)) (in_bh pis) bref).
      destruct (inner_wf_fields n pis Hn W) as (C2 & C3 & C1 & L4 & C4).
      rewrite select_halves_b by (try assumption; congruence).
      rewrite !g_select_b by assumption.
      change (is_real_inner pis) with (negb (is_dummy_inner pis)).
      destruct f, (is_dummy_inner pis); cbn [negb andb orb]; rewrite IH by first [assumption|split; assumption]; reflexivity.
  Qed.

  Lemma pub_scan_ref_init inners : Forall (inner_wf n) inners ->
    pub_scan_ref inners (map pub_dflag inners) 0 zero4 0 0 0 =
    let '(a, f, bh, bn) := pub_ref inners in (bh, bn, a, f).
  Proof.
    intros F. etransitivity.
    { exact (pub_scan_ref_spec inners F false zero4 0 0 0 good4_zero4 canon_0 canon_0 canon_0). }
    unfold pub_ref. destruct (find is_real_inner inners); reflexivity.
  Qed.

  Lemma gdet_pub_consistency a f bh : canon a -> canon f -> good4 bh ->
    forall inners, Forall (inner_wf n) inners ->
    gdet H (pub_consistency inners (map pub_dflag inners) a f bh) (forallb (pub_cons_ok a f bh) inners) tt.
  Proof.
    intros Ca Cf Gb. induction 1 as [|pis r W F IH]; cbn [map pub_consistency forallb]; [apply gdet_ret|].
    destruct (inner_wf_fields n pis Hn W) as (Ca' & Cf' & _ & G4).
    eapply gdet_conv; [| |reflexivity].
    - eapply gdet_dbind; [apply det_is_equal; assumption|]. apply gdet_assert.
      eapply gdet_dbind; [apply det_is_equal; assumption|]. apply gdet_assert.
      eapply gdet_dbind; [apply det_bde; assumption|]. apply gdet_assert. exact IH.
    - unfold pub_dflag, pub_cons_ok. rewrite !g_or_b, !b2z_eqb_1.
      destruct (is_dummy_inner pis); cbn [orb andb]; [reflexivity|]. rewrite !andb_assoc. reflexivity.
  Qed.

  Lemma forward_spec pis start len : inner_wf n pis -> 0 <= start -> 0 <= len -> start + len <= 21 * n + 8 ->
    forward (pub_dflag pis) pis start len = fwd_region pis start len.
  Proof.
    intros [L F] Hs Hl Hb. unfold forward, fwd_region, pub_dflag.
    change (firstn (Z.to_nat len) (skipn (Z.to_nat start) pis)) with (region pis start len).
    rewrite (map_ext_Forall _ (fun v => if is_dummy_inner pis then 0 else v))
      by (eapply Forall_impl; [|apply region_canon, F]; intros v; apply g_select_b0).
    destruct (is_dummy_inner pis); [|apply map_id].
    rewrite map_const_repeat, region_length by lia. reflexivity.
  Qed.
  Lemma forward_seg start len inners : Forall (inner_wf n) inners ->
    0 <= start -> 0 <= len -> start + len <= 21 * n + 8 ->
    concat (map (fun '(d, pis) => forward d pis start len) (combine (map pub_dflag inners) inners))
    = pub_seg start len inners.
  Proof.
    intros F Hs Hl Hb. unfold pub_seg. rewrite map_combine_map. f_equal. apply map_ext_Forall.
    eapply Forall_impl; [|exact F]. intros pis W. apply forward_spec; assumption.
  Qed.

  Theorem gdet_public_batch address inners : Forall (inner_wf n) inners ->
    gdet H (public_batch n address inners) (pub_compat inners) (pub_output n address inners).
  Proof.
    intros F. unfold public_batch. cbv zeta.
    eapply gdet_dbind; [apply det_pub_dummy_flags, F|].
    rewrite pub_scan_ref_init, !forward_seg by (try exact F; unfold PR_OUT_HEADER_LEN, PR_OUT_EXIT_SLOT_LEN; lia).
    rewrite pub_compat_cons_ok, pub_output_split. unfold pub_header.
    destruct (pub_ref inners) as [[[a f] bh] bn] eqn:E.
    destruct (pub_ref_good n inners a f bh bn Hn F E) as (Ca & Cf & _ & Gb).
    eapply gdet_conv; [eapply gdet_bind; [apply gdet_pub_consistency; assumption|apply gdet_ret]|apply andb_true_r|].
    unfold pub_exits, pub_nulls, pub_seg, PR_OUT_HEADER_LEN, PR_OUT_EXIT_SLOT_LEN.
    replace (zlen inners * (n * 2)) with (2 * n * zlen inners) by lia.
    replace (n * 2 * 5) with (10 * n) by lia. replace (n * 4) with (4 * n) by lia.
    rewrite <- !app_assoc. reflexivity.
  Qed.

  Theorem public_batch_spec address inners : Forall (inner_wf n) inners ->
    forall post, rel H (public_batch n address inners) post <->
                 (pub_compat inners = true /\ post (pub_output n address inners)).
  Proof. intros F. apply (gdet_public_batch address inners F). Qed.
End PublicBatchProofs.

Lemma fwd_region_zlen n q s len : inner_wf n q -> 0 <= s -> 0 <= len -> s + len <= 21 * n + 8 ->
  zlen (fwd_region q s len) = len.
Proof.
  intros [L _] Hs Hl Hb. unfold fwd_region, zlen. destruct (is_dummy_inner q).
  - rewrite repeat_length. lia.
  - rewrite region_length; lia.
Qed.
Lemma fwd_region_dummy q s len : is_dummy_inner q = true -> fwd_region q s len = repeat 0 (Z.to_nat len).
Proof. intros D. unfold fwd_region. rewrite D. reflexivity. Qed.
Lemma fwd_region_real q s len : is_dummy_inner q = false -> fwd_region q s len = region q s len.
Proof. intros D. unfold fwd_region. rewrite D. reflexivity. Qed.

Section Segments.
  Variables n s len : Z.
  Hypotheses (Hs : 0 <= s) (Hl : 0 <= len) (Hb : s + len <= 21 * n + 8).
  Variable inners : list (list Z).
  Hypothesis F : Forall (inner_wf n) inners.

  Lemma pub_seg_chunks : Forall (fun l => zlen l = len) (map (fun q => fwd_region q s len) inners).
  Proof. apply Forall_map. eapply Forall_impl; [|exact F]. intros q W. apply (fwd_region_zlen n); assumption. Qed.
  Lemma pub_seg_zlen : zlen (pub_seg s len inners) = len * zlen inners.
  Proof. unfold pub_seg. rewrite (zlen_concat_chunks len) by exact pub_seg_chunks. rewrite zlen_map. reflexivity. Qed.
  Lemma pub_seg_nth i : (i < length inners)%nat ->
    region (pub_seg s len inners) (Z.of_nat i * len) len = fwd_region (nth i inners []) s len.
  Proof.
    intros Hi. unfold pub_seg. rewrite (region_concat_chunk len) by (try exact pub_seg_chunks; rewrite ?map_length; assumption).
    exact (nth_map_in (fun q => fwd_region q s len) inners i [] [] Hi).
  Qed.
  Lemma pub_seg_within i : (i < length inners)%nat -> Z.of_nat i * len + len <= zlen (pub_seg s len inners).
  Proof. intros Hi. rewrite pub_seg_zlen. unfold zlen. nia. Qed.
End Segments.

Lemma pub_exits_zlen n inners : 1 <= n -> Forall (inner_wf n) inners -> zlen (pub_exits n inners) = 10 * n * zlen inners.
Proof. intros Hn F. apply (pub_seg_zlen n); [lia..|exact F]. Qed.
Lemma pub_nulls_zlen n inners : 1 <= n -> Forall (inner_wf n) inners -> zlen (pub_nulls n inners) = 4 * n * zlen inners.
Proof. intros Hn F. apply (pub_seg_zlen n); [lia..|exact F]. Qed.

Section Layout.
  Variable n : Z.
  Variables (address : list Z) (inners : list (list Z)).
  Hypotheses (Hn : 1 <= n) (La : length address = 4%nat) (F : Forall (inner_wf n) inners).

  Lemma pub_header_zlen : zlen (pub_header n address inners) = 12.
  Proof.
    unfold pub_header. destruct (pub_ref inners) as [[[a f] bh] bn] eqn:E.
    destruct (pub_ref_good n inners a f bh bn Hn F E) as (_ & _ & _ & Lb & _).
    unfold zlen. rewrite !app_length, La, Lb. reflexivity.
  Qed.
  Lemma pub_output_zlen : zlen (pub_output n address inners) = 12 + 14 * n * zlen inners.
  Proof. rewrite pub_output_split, !zlen_app, pub_header_zlen, pub_exits_zlen, pub_nulls_zlen by assumption. lia. Qed.

  Lemma pub_output_header : region (pub_output n address inners) 0 12 = pub_header n address inners.
  Proof.
    pose proof (zlen_nonneg (pub_header n address inners)).
    rewrite pub_output_split, <- pub_header_zlen, region_app_take by lia. apply region_all.
  Qed.
  Lemma pub_output_exit_region :
    region (pub_output n address inners) 12 (10 * n * zlen inners) = pub_exits n inners.
  Proof. rewrite pub_output_split, <- pub_header_zlen, <- (pub_exits_zlen n inners Hn F). apply region_app_mid. Qed.
  Lemma pub_output_null_region :
    region (pub_output n address inners) (12 + 10 * n * zlen inners) (4 * n * zlen inners) = pub_nulls n inners.
  Proof.
    rewrite pub_output_split, app_assoc, <- pub_header_zlen, <- (pub_exits_zlen n inners Hn F), <- zlen_app, <- (pub_nulls_zlen n inners Hn F).
    apply region_app_last.
  Qed.

  Lemma pub_output_exit_segment i : (i < length inners)%nat ->
    region (pub_output n address inners) (12 + Z.of_nat i * (10 * n)) (10 * n)
    = fwd_region (nth i inners []) 8 (10 * n).
  Proof.
    intros Hi. rewrite pub_output_split, <- pub_header_zlen.
    rewrite region_app_mid_sub by (try apply (pub_seg_within n); try exact F; try exact Hi; lia).
    apply (pub_seg_nth n); [lia..|exact F|exact Hi].
  Qed.
  Lemma pub_output_null_segment i : (i < length inners)%nat ->
    region (pub_output n address inners) (12 + 10 * n * zlen inners + Z.of_nat i * (4 * n)) (4 * n)
    = fwd_region (nth i inners []) (8 + 10 * n) (4 * n).
  Proof.
    intros Hi. rewrite pub_output_split, app_assoc, <- pub_header_zlen, <- (pub_exits_zlen n inners Hn F), <- zlen_app.
    rewrite region_app_skip by lia. apply (pub_seg_nth n); [lia..|exact F|exact Hi].
  Qed.
End Layout.

Lemma pub_compat_ref inners a f bh bn q : pub_ref inners = (a, f, bh, bn) -> pub_compat inners = true ->
  In q inners -> is_real_inner q = true -> in_asset q = a /\ in_fee q = f /\ in_bh q = bh.
Proof.
  intros E C Iq. rewrite pub_compat_cons_ok, E, forallb_forall in C. apply pub_cons_ok_iff, C, Iq.
Qed.

Lemma pub_compat_iff inners :
  pub_compat inners = true <->
  forall a b, In a inners -> In b inners -> is_real_inner a = true -> is_real_inner b = true ->
              in_bh a = in_bh b /\ in_asset a = in_asset b /\ in_fee a = in_fee b.
Proof.
  split.
  - intros C a b Ia Ib Ra Rb. destruct (pub_ref inners) as [[[x f] bh] bn] eqn:E.
    destruct (pub_compat_ref inners x f bh bn a E C Ia Ra) as (A1 & A2 & A3).
    destruct (pub_compat_ref inners x f bh bn b E C Ib Rb) as (B1 & B2 & B3). repeat split; congruence.
  - intros C. rewrite pub_compat_cons_ok.
    destruct (pub_ref_cases inners) as [(q & Iq & Rq & ->)|(N & ->)]; apply forallb_forall; intros x Ix; apply pub_cons_ok_iff; intros Rx.
    + destruct (C x q Ix Iq Rx Rq) as (E1 & E2 & E3). auto.
    + rewrite (N x Ix) in Rx. discriminate.
Qed.

Lemma pub_compat_filter inners : pub_compat (filter is_real_inner inners) = pub_compat inners.
Proof.
  rewrite !pub_compat_cons_ok, pub_ref_filter. destruct (pub_ref inners) as [[[a f] bh] bn].
  induction inners as [|q l IH]; cbn [filter forallb]; [reflexivity|].
  unfold is_real_inner at 1, pub_cons_ok at 2. destruct (is_dummy_inner q) eqn:D; cbn [negb orb forallb andb]; [exact IH|].
  unfold pub_cons_ok at 1. rewrite D, IH. reflexivity.
Qed.

(* dummies are invisible to [pub_ref] and [pub_compat] *)
Lemma dummy_not_real q : is_dummy_inner q = true -> is_real_inner q = false.
Proof. intros D. unfold is_real_inner. rewrite D. reflexivity. Qed.
Lemma filter_real_dummies pads : Forall (fun d => is_dummy_inner d = true) pads -> filter is_real_inner pads = [].
Proof. induction 1 as [|d r D F IH]; cbn [filter]; [reflexivity|]. rewrite (dummy_not_real d D). exact IH. Qed.

Lemma pub_compat_dummy_exempt l1 d d' l2 : is_dummy_inner d = true -> is_dummy_inner d' = true ->
  pub_compat (l1 ++ d :: l2) = pub_compat (l1 ++ d' :: l2).
Proof.
  intros D D'. rewrite <- (pub_compat_filter (l1 ++ d :: l2)), <- (pub_compat_filter (l1 ++ d' :: l2)), !filter_app.
  cbn [filter]. rewrite (dummy_not_real d D), (dummy_not_real d' D'). reflexivity.
Qed.
Lemma pub_ref_padding inners pads : Forall (fun d => is_dummy_inner d = true) pads ->
  pub_ref (inners ++ pads) = pub_ref inners.
Proof. intros D. rewrite <- pub_ref_filter, filter_app, (filter_real_dummies pads D), app_nil_r. apply pub_ref_filter. Qed.
Lemma pub_compat_padding inners pads : Forall (fun d => is_dummy_inner d = true) pads ->
  pub_compat (inners ++ pads) = pub_compat inners.
Proof. intros D. rewrite <- pub_compat_filter, filter_app, (filter_real_dummies pads D), app_nil_r. apply pub_compat_filter. Qed.

(* pub_compat looks at the (asset, fee, block hash) triples alone: by [pub_compat_iff] it asks the real members,
   which are told apart by their block hash, to agree on exactly these *)
Definition inner_key (pis : list Z) : Z * Z * list Z := (in_asset pis, in_fee pis, in_bh pis).

Lemma pub_compat_only_keys inners inners' :
  map inner_key inners = map inner_key inners' -> pub_compat inners = pub_compat inners'.
Proof.
  assert (M : forall l l', map inner_key l = map inner_key l' -> pub_compat l = true -> pub_compat l' = true).
  { intros l l' E. rewrite !pub_compat_iff. intros C a b Ia Ib.
    apply (in_map inner_key) in Ia, Ib. rewrite <- E in Ia, Ib. apply in_map_iff in Ia, Ib.
    destruct Ia as (a' & Ka & Ia), Ib as (b' & Kb & Ib). specialize (C a' b' Ia Ib).
    unfold is_real_inner, is_dummy_inner in *. injection Ka as <- <- <-. injection Kb as <- <- <-. exact C. }
  intros E. apply eq_true_iff_eq. split; apply M; [exact E|symmetry; exact E].
Qed.

(* executable well-formedness, for concrete examples *)
Definition inner_wfb (n : Z) (pis : list Z) : bool := (zlen pis =? 21 * n + 8) && forallb is_canon pis.
Lemma inner_wfb_spec n pis : inner_wfb n pis = true -> inner_wf n pis.
Proof.
  unfold inner_wfb, inner_wf. rewrite andb_true_iff, Z.eqb_eq, forallb_forall, Forall_forall.
  intros [L C]. split; [exact L|]. intros x Ix. apply is_canon_spec, C, Ix.
Qed.
Lemma inners_wfb_spec n inners : forallb (inner_wfb n) inners = true -> Forall (inner_wf n) inners.
Proof. rewrite forallb_forall, Forall_forall. intros C x Ix. apply inner_wfb_spec, C, Ix. Qed.
