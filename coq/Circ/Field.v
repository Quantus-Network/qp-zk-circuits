(* The Goldilocks field as canonical representatives in Z, with the facts the gadget proofs need:
   no zero divisors and existence of inverses, both from the primality of p (proved in Base/Lucas.v,
   no axiom). *)
From Coq Require Import Znumtheory.
From V.Base Require Import Lucas Common.

Lemma p_prime : prime p.
Proof. exact goldilocks_prime. Qed.

Definition canon (x : Z) : Prop := 0 <= x < p.
Definition fadd (x y : Z) : Z := (x + y) mod p.
Definition fsub (x y : Z) : Z := (x - y) mod p.
Definition fmul (x y : Z) : Z := (x * y) mod p.
Definition fneg (x : Z) : Z := (- x) mod p.

(* What most proofs need to know of the literals [p], [two32], [two64]: with these bounds in the context
   [lia] works with the three names kept folded. *)
Lemma two32_pos : 0 < two32. Proof. reflexivity. Qed.
Lemma two64_sq : two64 = two32 * two32. Proof. reflexivity. Qed.
Lemma p_two32 : p = two64 - two32 + 1. Proof. reflexivity. Qed.
Lemma two33_lt_p : 2 * two32 < p. Proof. reflexivity. Qed.

Lemma canon_mod x : canon (x mod p). Proof. apply Z.mod_pos_bound. reflexivity. Qed.
Lemma canon_fadd x y : canon (fadd x y). Proof. apply canon_mod. Qed.
Lemma canon_fsub x y : canon (fsub x y). Proof. apply canon_mod. Qed.
Lemma canon_fmul x y : canon (fmul x y). Proof. apply canon_mod. Qed.
Lemma canon_0 : canon 0. Proof. split; reflexivity. Qed.
Lemma canon_1 : canon 1. Proof. split; [discriminate|reflexivity]. Qed.
Lemma canon_nth l i : Forall canon l -> canon (nth i l 0).
Proof.
  intros F. destruct (nth_in_or_default i l 0) as [I| ->]; [|apply canon_0].
  rewrite Forall_forall in F. apply F, I.
Qed.
Lemma is_canon_spec x : is_canon x = true <-> canon x.
Proof. unfold is_canon, canon. rewrite andb_true_iff, Z.leb_le, Z.ltb_lt. tauto. Qed.

(* a field operation whose integer result is already canonical is the integer operation *)
Lemma fadd_small x y : 0 <= x + y < p -> fadd x y = x + y. Proof. apply Z.mod_small. Qed.
Lemma fsub_small x y : 0 <= x - y < p -> fsub x y = x - y. Proof. apply Z.mod_small. Qed.
Lemma fmul_small x y : 0 <= x * y < p -> fmul x y = x * y. Proof. apply Z.mod_small. Qed.

Lemma small_divide_0 d : Z.abs d < p -> (p | d) -> d = 0.
Proof.
  intros B D. destruct (Z.eq_dec d 0) as [E|N]; [exact E|]. apply Zdivide_bounds in D; [lia|exact N].
Qed.
Lemma canon_divide_0 d : canon d -> (p | d) -> d = 0.
Proof. unfold canon. intros B. apply small_divide_0. lia. Qed.

Lemma fmul_zero a b : canon a -> canon b -> fmul a b = 0 -> a = 0 \/ b = 0.
Proof.
  intros Ha Hb E. apply Zmod_divide in E; [|discriminate].
  apply prime_mult in E; [|exact p_prime].
  destruct E as [E|E]; [left|right]; apply canon_divide_0; assumption.
Qed.

Lemma finv_exists d : canon d -> d <> 0 -> exists inv, canon inv /\ fmul d inv = 1.
Proof.
  intros Hd Hn.
  assert (R : rel_prime d p).
  { apply rel_prime_sym, prime_rel_prime; [exact p_prime|]. intros D. apply Hn, canon_divide_0; assumption. }
  destruct (rel_prime_bezout _ _ R) as [u v E].
  exists (u mod p). split; [apply canon_mod|].
  unfold fmul. rewrite Z.mul_mod_idemp_r by discriminate.
  replace (d * u) with (1 + (- v) * p) by lia. rewrite Z.mod_add by discriminate.
  apply Z.mod_1_l. reflexivity.
Qed.

Lemma fsub_eq_0 x y : canon x -> canon y -> (fsub x y = 0 <-> x = y).
Proof.
  unfold canon. intros Hx Hy. split; [|intros ->; unfold fsub; rewrite Z.sub_diag; reflexivity].
  intros E. apply Zmod_divide in E; [|discriminate]. apply small_divide_0 in E; lia.
Qed.
Lemma fsub_neq_0 x y : canon x -> canon y -> x <> y -> fsub x y <> 0.
Proof. intros Hx Hy N E. apply N, (fsub_eq_0 x y Hx Hy), E. Qed.
Lemma fsub_diag x : fsub x x = 0.
Proof. unfold fsub. rewrite Z.sub_diag. reflexivity. Qed.
Lemma fmul_0_l x : fmul 0 x = 0.
Proof. unfold fmul. rewrite Z.mul_0_l. reflexivity. Qed.
Lemma fmul_0_r x : fmul x 0 = 0.
Proof. unfold fmul. rewrite Z.mul_0_r. reflexivity. Qed.
Lemma fmul_1_l x : canon x -> fmul 1 x = x.
Proof. intros Hx. unfold fmul. rewrite Z.mul_1_l. apply Z.mod_small, Hx. Qed.
Lemma fmul_1_r x : canon x -> fmul x 1 = x.
Proof. intros Hx. unfold fmul. rewrite Z.mul_1_r. apply Z.mod_small, Hx. Qed.
Lemma fmul_comm x y : fmul x y = fmul y x.
Proof. unfold fmul. rewrite Z.mul_comm. reflexivity. Qed.
Lemma fadd_0_l x : canon x -> fadd 0 x = x.
Proof. apply Z.mod_small. Qed.
Lemma fadd_0_r x : canon x -> fadd x 0 = x.
Proof. intros Hx. unfold fadd. rewrite Z.add_0_r. apply Z.mod_small, Hx. Qed.
Lemma fsub_0_r x : canon x -> fsub x 0 = x.
Proof. intros Hx. unfold fsub. rewrite Z.sub_0_r. apply Z.mod_small, Hx. Qed.

(* a value is a bit iff b*(b-1) = 0 (the BaseSum<2> limb constraint) *)
Lemma bit_constraint b : canon b -> (fmul b (fsub b 1) = 0 <-> b = 0 \/ b = 1).
Proof.
  intros Hb. split.
  - intros E. destruct (fmul_zero b (fsub b 1) Hb (canon_fsub _ _) E) as [E0|E1]; [left; exact E0|right].
    apply (fsub_eq_0 b 1 Hb canon_1), E1.
  - intros [->| ->]; [apply fmul_0_l|rewrite fsub_diag; apply fmul_0_r].
Qed.

Definition bitZ (b : Z) : Prop := b = 0 \/ b = 1.
Definition is_bit (b : Z) : bool := (b =? 0) || (b =? 1).
Lemma bitZ_bound b : bitZ b -> 0 <= b < 2.
Proof. intros [->| ->]; lia. Qed.
Lemma is_bit_spec b : is_bit b = true <-> bitZ b.
Proof. unfold is_bit, bitZ. rewrite orb_true_iff, !Z.eqb_eq. tauto. Qed.
Lemma forallb_is_bit bits : forallb is_bit bits = true <-> Forall bitZ bits.
Proof. rewrite forallb_forall, Forall_forall. split; intros F b Hb; apply is_bit_spec, F, Hb. Qed.
