(* Pure theory of the odd-even transposition network used by sort_digests4 (common/src/gadgets.rs):
   n rounds over n elements, round r compare-and-swaps the pairs (i, i+1) with i = r mod 2 (mod 2).

   - [oets_perm]        the output is a permutation of the input
   - [oets_map]         order embeddings / monotone maps commute with the network (0-1 principle)
   - [oets01_all]       a 0-1 input is sorted by the network.  Proof: ones only move right, and a one
                        moves whenever it is on the left wire of a comparator with a zero on the right.
                        The one that is i-th from the right end has at most i - 1 ones in its way, each
                        of which holds it up for one round, and may wait one round for the parity of
                        its position; after that it advances one place per round until it is at home.
                        As an invariant ([on_time]): at round t, that one is at home or at a position
                        >= 2 h + t - 2 i, where 2 h is the number of ones rounded up to an even number.
                        The invariant holds at t = 0 and at t = n puts every one at home.
   - [oets_sorted_all]  hence any input is sorted, for a strict weak order
   - [oets_isort_all]   and the network equals insertion sort when the order is moreover antisymmetric. *)
From Coq Require Import Arith Permutation Sorted RelationClasses.
From V.Base Require Import Common.
Local Close Scope Z_scope.

Lemma list_ind2 {A} (P : list A -> Prop) :
  P [] -> (forall a, P [a]) -> (forall a b l, P l -> P (a :: b :: l)) -> forall l, P l.
Proof.
  intros H0 H1 H2. fix IH 1. intros [|a [|b l]]; [exact H0|apply H1|apply H2, IH].
Qed.

Section Net.
  Context {X : Type}.
  Variable ltb : X -> X -> bool.

  Fixpoint cas_pairs_pure (v : list X) : list X :=
    match v with
    | a :: b :: r => (if ltb a b then a else b) :: (if ltb a b then b else a) :: cas_pairs_pure r
    | _ => v
    end.
  Definition sort_round_pure (round : nat) (v : list X) : list X :=
    if Nat.even round then cas_pairs_pure v
    else match v with
         | [] => []
         | x :: r => x :: cas_pairs_pure r
         end.
  Fixpoint sort_rounds_pure (rounds : list nat) (v : list X) : list X :=
    match rounds with
    | [] => v
    | r :: rs => sort_rounds_pure rs (sort_round_pure r v)
    end.
  Definition oets (v : list X) : list X := sort_rounds_pure (seq 0 (length v)) v.

  Lemma cas_pairs_perm v : Permutation (cas_pairs_pure v) v.
  Proof.
    induction v as [|a|a b r IH] using list_ind2; cbn [cas_pairs_pure]; try reflexivity.
    destruct (ltb a b).
    - do 2 apply perm_skip. exact IH.
    - etransitivity; [apply perm_swap|]. do 2 apply perm_skip. exact IH.
  Qed.
  Lemma sort_round_perm r v : Permutation (sort_round_pure r v) v.
  Proof.
    unfold sort_round_pure. destruct (Nat.even r); [apply cas_pairs_perm|].
    destruct v as [|x v]; [reflexivity|]. apply perm_skip, cas_pairs_perm.
  Qed.
  Lemma sort_rounds_perm rs v : Permutation (sort_rounds_pure rs v) v.
  Proof.
    revert v; induction rs as [|r rs IH]; intros v; cbn [sort_rounds_pure]; [reflexivity|].
    etransitivity; [apply IH|apply sort_round_perm].
  Qed.
  Theorem oets_perm v : Permutation (oets v) v.
  Proof. apply sort_rounds_perm. Qed.
  Lemma oets_length v : length (oets v) = length v.
  Proof. apply Permutation_length, oets_perm. Qed.
  Lemma oets_short v : length v <= 1 -> oets v = v.
  Proof. destruct v as [|a [|b v]]; cbn [length]; [reflexivity|reflexivity|lia]. Qed.
  Lemma oets_Forall (P : X -> Prop) v : Forall P v -> Forall P (oets v).
  Proof. intros F. eapply Permutation_Forall; [symmetry; apply oets_perm|exact F]. Qed.
End Net.

Section MapCommute.
  Context {X Y : Type}.
  Variables (ltX : X -> X -> bool) (ltY : Y -> Y -> bool) (g : X -> Y).
  Hypothesis compat : forall a b,
    g (if ltX a b then a else b) = (if ltY (g a) (g b) then g a else g b) /\
    g (if ltX a b then b else a) = (if ltY (g a) (g b) then g b else g a).

  Lemma cas_pairs_map v : map g (cas_pairs_pure ltX v) = cas_pairs_pure ltY (map g v).
  Proof.
    induction v as [|a|a b r IH] using list_ind2; cbn [cas_pairs_pure map]; try reflexivity.
    destruct (compat a b) as [E1 E2]. rewrite E1, E2, IH. reflexivity.
  Qed.
  Lemma sort_round_map r v : map g (sort_round_pure ltX r v) = sort_round_pure ltY r (map g v).
  Proof.
    unfold sort_round_pure. destruct (Nat.even r); [apply cas_pairs_map|].
    destruct v as [|x v]; [reflexivity|]. cbn [map]. rewrite cas_pairs_map. reflexivity.
  Qed.
  Lemma sort_rounds_map rs v : map g (sort_rounds_pure ltX rs v) = sort_rounds_pure ltY rs (map g v).
  Proof.
    revert v; induction rs as [|r rs IH]; intros v; cbn [sort_rounds_pure]; [reflexivity|].
    rewrite IH, sort_round_map. reflexivity.
  Qed.
  Theorem oets_map v : map g (oets ltX v) = oets ltY (map g v).
  Proof. unfold oets. rewrite map_length. apply sort_rounds_map. Qed.
End MapCommute.

(* an order embedding commutes *)
Lemma oets_map_embed {X Y} (ltX : X -> X -> bool) (ltY : Y -> Y -> bool) (g : X -> Y) :
  (forall a b, ltY (g a) (g b) = ltX a b) -> forall v, map g (oets ltX v) = oets ltY (map g v).
Proof.
  intros E. apply oets_map. intros a b. rewrite E. destruct (ltX a b); split; reflexivity.
Qed.

Definition ltbB (a b : bool) : bool := negb a && b.

(* a monotone predicate commutes (0-1 principle, first half) *)
Lemma oets_map_mono {X} (ltb : X -> X -> bool) (f : X -> bool) :
  (forall a b, ltb a b = true -> f a = true -> f b = true) ->
  (forall a b, ltb a b = false -> f b = true -> f a = true) ->
  forall v, map f (oets ltb v) = oets ltbB (map f v).
Proof.
  intros M1 M2. apply oets_map. intros a b. unfold ltbB.
  destruct (ltb a b) eqn:L; [pose proof (M1 a b L)|pose proof (M2 a b L)];
    destruct (f a), (f b); cbn; intuition congruence.
Qed.

Fixpoint ones (l : list bool) : nat :=
  match l with
  | [] => 0
  | b :: r => (if b then 1 else 0) + ones r
  end.
Lemma ones_perm l l' : Permutation l l' -> ones l = ones l'.
Proof. induction 1; cbn [ones]; lia. Qed.
Lemma ones_le_length l : ones l <= length l.
Proof. induction l as [|b r IH]; cbn [ones length]; [lia|destruct b; lia]. Qed.

(* sortedness of 0-1 lists as a boolean *)
Fixpoint sortedB (l : list bool) : bool :=
  match l with
  | [] => true
  | a :: r => match r with
              | [] => true
              | b :: _ => implb a b && sortedB r
              end
  end.

(* [on_time d p l], for a list l that starts at position p: every one in l, at position q say and
   the i-th one counted from the right end, is at home (only ones to its right) or has q >= d - 2 i. *)
Fixpoint on_time (d p : nat) (l : list bool) : Prop :=
  match l with
  | [] => True
  | b :: r => (b = true -> length r <= ones r \/ d <= p + 2 * S (ones r)) /\ on_time d (S p) r
  end.

Lemma on_time_start d l : forall p, d <= p + ones l + 1 -> on_time d p l.
Proof.
  induction l as [|b r IH]; intros p D; cbn [on_time ones] in *; [exact I|].
  split; [intros ->; lia|]. apply IH. destruct b; lia.
Qed.

(* Comparators whose left wires have the parity of d advance d: a one that is not at home and sits
   exactly at d - 2 i is on a left wire; the next one to its right is at home or at d - 2 (i - 1) or
   beyond, in either case not on the right wire of this comparator, so the one moves. *)
Lemma cas_on_time d l : forall p m, d + p = 2 * m -> on_time d p l ->
  on_time (S d) p (cas_pairs_pure ltbB l).
Proof.
  induction l as [|a|a b r IH] using list_ind2; intros p m E H; [exact I|split; [left; cbn; lia|exact I]|].
  destruct H as (Ha & Hb & H). apply (IH _ (S m)) in H; [|lia].
  cbn [cas_pairs_pure on_time ones length].
  rewrite (ones_perm _ _ (cas_pairs_perm ltbB r)), (Permutation_length (cas_pairs_perm ltbB r)).
  split; [|split; [|exact H]];
    destruct a, b; cbn [ltbB negb andb ones length] in *; intros T; try discriminate T; lia.
Qed.
Lemma round_on_time h t l : on_time (2 * h + t) 0 l -> on_time (2 * h + S t) 0 (sort_round_pure ltbB t l).
Proof.
  rewrite Nat.add_succ_r. unfold sort_round_pure. destruct (Nat.even t) eqn:E.
  - apply Nat.even_spec in E as [j ->]. apply (cas_on_time _ _ _ (h + j)). lia.
  - rewrite <- Nat.negb_odd in E. apply negb_false_iff, Nat.odd_spec in E as [j ->].
    destruct l as [|x r]; [exact (fun H => H)|]. intros [Hx H]. split.
    + rewrite (ones_perm _ _ (cas_pairs_perm ltbB r)), (Permutation_length (cas_pairs_perm ltbB r)). lia.
    + apply (cas_on_time _ _ _ (h + j + 1)); [lia|exact H].
Qed.
Lemma rounds_on_time h m : forall t l, on_time (2 * h + t) 0 l ->
  on_time (2 * h + t + m) 0 (sort_rounds_pure ltbB (seq t m) l).
Proof.
  induction m as [|m IH]; intros t l H; cbn [seq sort_rounds_pure]; [rewrite Nat.add_0_r; exact H|].
  replace (2 * h + t + S m) with (2 * h + S t + m) by lia. apply IH, round_on_time, H.
Qed.

(* when d has passed the end of the list by the number of ones, every one is at home *)
Lemma on_time_sorted d l : forall p, ones l + p + length l <= d -> on_time d p l -> sortedB l = true.
Proof.
  induction l as [|b r IH]; intros p D H; [reflexivity|]. destruct H as [Hb H]. cbn [ones length] in D.
  apply IH in H; [|lia]. destruct r as [|b' r']; [reflexivity|].
  change (implb b b' && sortedB (b' :: r') = true). rewrite H, andb_true_r. destruct b; [|reflexivity].
  pose proof (ones_le_length r'). destruct b'; [reflexivity|]. cbn [ones length] in *. lia.
Qed.

Theorem oets01_all l : sortedB (oets ltbB l) = true.
Proof.
  assert (exists h, ones l <= 2 * h <= ones l + 1) as [h Hh]
    by (destruct (Nat.Even_or_Odd (ones l)) as [[j E]|[j E]]; [exists j|exists (S j)]; lia).
  apply (on_time_sorted (2 * h + 0 + length l) _ 0).
  - rewrite (ones_perm _ _ (oets_perm ltbB l)), oets_length. lia.
  - apply rounds_on_time, on_time_start. lia.
Qed.

Section Order.
  Context {X : Type}.
  Variable ltb : X -> X -> bool.
  Hypothesis ltb_irrefl : forall x, ltb x x = false.
  Hypothesis ltb_trans : forall x y z, ltb x y = true -> ltb y z = true -> ltb x z = true.
  Hypothesis ltb_negtrans : forall x y z, ltb x y = false -> ltb y z = false -> ltb x z = false.

  Definition le_of (x y : X) : Prop := ltb y x = false.

  Lemma le_of_trans : Transitive le_of.
  Proof. intros x y z A B. unfold le_of in *. eapply ltb_negtrans; eassumption. Qed.

  Lemma thresholds_sorted out :
    (forall t, sortedB (map (ltb t) out) = true) -> Sorted le_of out.
  Proof.
    induction out as [|x r IH]; intros T; [constructor|].
    constructor.
    - apply IH. intros t. specialize (T t). cbn [map sortedB] in T.
      destruct r as [|y r']; [reflexivity|]. cbn [map] in T. apply andb_true_iff in T. apply T.
    - destruct r as [|y r']; constructor. specialize (T y). cbn [map sortedB] in T.
      apply andb_true_iff in T. destruct T as [T _]. rewrite ltb_irrefl in T.
      unfold le_of. destruct (ltb y x); [discriminate|reflexivity].
  Qed.

  Theorem oets_sorted_all l : StronglySorted le_of (oets ltb l).
  Proof.
    apply Sorted_StronglySorted; [exact le_of_trans|]. apply thresholds_sorted. intros t.
    rewrite (oets_map_mono ltb (ltb t)).
    - apply oets01_all.
    - intros a b L Ta. eapply ltb_trans; eassumption.
    - intros a b L Tb. destruct (ltb t a) eqn:Ta; [reflexivity|].
      rewrite (ltb_negtrans t a b Ta L) in Tb. discriminate.
  Qed.

  (* insertion sort as the specification *)
  Fixpoint insert (x : X) (l : list X) : list X :=
    match l with
    | [] => [x]
    | y :: r => if ltb y x then y :: insert x r else x :: l
    end.
  Fixpoint isort (l : list X) : list X :=
    match l with
    | [] => []
    | x :: r => insert x (isort r)
    end.

  Lemma insert_perm x l : Permutation (insert x l) (x :: l).
  Proof.
    induction l as [|y r IH]; cbn [insert]; [reflexivity|].
    destruct (ltb y x); [|reflexivity].
    etransitivity; [apply perm_skip, IH|apply perm_swap].
  Qed.
  Theorem isort_perm l : Permutation (isort l) l.
  Proof. exact (fold_insert_perm insert insert_perm l). Qed.
  Lemma isort_length l : length (isort l) = length l.
  Proof. apply Permutation_length, isort_perm. Qed.

  Lemma ltb_asym x y : ltb x y = true -> ltb y x = false.
  Proof.
    intros A. destruct (ltb y x) eqn:B; [|reflexivity].
    pose proof (ltb_trans x y x A B) as C. rewrite ltb_irrefl in C. discriminate.
  Qed.

  Lemma insert_sorted x l : StronglySorted le_of l -> StronglySorted le_of (insert x l).
  Proof.
    induction 1 as [|y r S IH F]; cbn [insert]; [repeat constructor|].
    destruct (ltb y x) eqn:L.
    - constructor; [exact IH|].
      eapply Permutation_Forall; [symmetry; apply insert_perm|].
      constructor; [apply ltb_asym, L|exact F].
    - constructor; [constructor; assumption|].
      constructor; [exact L|]. eapply Forall_impl; [|exact F].
      intros z Hz. eapply le_of_trans; [exact L|exact Hz].
  Qed.
  Theorem isort_sorted l : StronglySorted le_of (isort l).
  Proof. induction l as [|x r IH]; cbn [isort]; [constructor|apply insert_sorted, IH]. Qed.

  Hypothesis ltb_antisym : forall x y, ltb x y = false -> ltb y x = false -> x = y.

  Lemma sorted_perm_unique l1 l2 :
    StronglySorted le_of l1 -> StronglySorted le_of l2 -> Permutation l1 l2 -> l1 = l2.
  Proof. exact (StronglySorted_perm_eq le_of l1 l2 (fun a b _ _ Hab Hba => ltb_antisym a b Hba Hab)). Qed.

  Theorem oets_isort_all l : oets ltb l = isort l.
  Proof.
    apply sorted_perm_unique.
    - apply oets_sorted_all.
    - apply isort_sorted.
    - etransitivity; [apply oets_perm|symmetry; apply isort_perm].
  Qed.
End Order.
