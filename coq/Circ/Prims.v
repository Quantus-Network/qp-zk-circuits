(* plonky2 1.5.5 builder operations.
   - Gate-determined arithmetic (add, sub, mul, mul_const, mul_add, arithmetic, select, _if, and, or,
     not): pure field functions, exactly the formulas of gadgets/arithmetic.rs and gadgets/select.rs
     (they are used on non-boolean "BoolTarget::new_unsafe" values too, so no booleanity is assumed).
   - Hint-allocating gadgets as [Circ] programs over the primitives of Core.v, transcribed from
     gadgets/range_check.rs (range_check, split_low_high), and, for these and for the [IsEq] and [Split]
     nodes of Core.v (gadgets/arithmetic.rs is_equal, split_le), what a witness can satisfy: [rel_*], [gdet_*]. *)
From V.Base Require Import Common.
From V.Circ Require Import Field Core.

Definition g_not (b : Z) : Z := fsub 1 b.                               (* one - b                *)
Definition g_and (a b : Z) : Z := fmul a b.                             (* mul                    *)
Definition g_or (a b : Z) : Z := (a + b - a * b) mod p.                 (* arithmetic(-1,1,a,b,a) + b *)
Definition g_select (b x y : Z) : Z := (b * x - (b * y - y)) mod p.     (* mul_sub(b,x, mul_sub(b,y,y)) *)
Definition g_if (b x y : Z) : Z := ((1 - b) * y + b * x) mod p.         (* mul_add(not b, y, b*x) *)
Definition g_mul_const_add (c a b : Z) : Z := (c * a + b) mod p.        (* mul_const_add(c,a,b)   *)
Definition g_mul_add (a b c : Z) : Z := (a * b + c) mod p.
Definition g_mul_sub (a b c : Z) : Z := (a * b - c) mod p.
Definition g_xor (a b : Z) : Z := (a + b - 2 * (a * b)) mod p.          (* common/src/gadgets.rs xor *)

Lemma canon_g_not b : canon (g_not b). Proof. apply canon_fsub. Qed.
Lemma canon_g_and a b : canon (g_and a b). Proof. apply canon_fmul. Qed.
Lemma canon_g_or a b : canon (g_or a b). Proof. apply canon_mod. Qed.
Lemma canon_g_select b x y : canon (g_select b x y). Proof. apply canon_mod. Qed.
Lemma canon_g_if b x y : canon (g_if b x y). Proof. apply canon_mod. Qed.
Lemma canon_g_mca c a b : canon (g_mul_const_add c a b). Proof. apply canon_mod. Qed.
Lemma canon_g_xor a b : canon (g_xor a b). Proof. apply canon_mod. Qed.

Definition b2z (b : bool) : Z := if b then 1 else 0.
Lemma canon_b2z b : canon (b2z b). Proof. destruct b; [apply canon_1|apply canon_0]. Qed.
Lemma b2z_eqb_0 b : (b2z b =? 0) = negb b. Proof. destruct b; reflexivity. Qed.
Lemma b2z_eqb_1 b : (b2z b =? 1) = b. Proof. destruct b; reflexivity. Qed.

(* on booleans the gates are the boolean connectives; select picks *)
Lemma g_not_b b : g_not (b2z b) = b2z (negb b). Proof. destruct b; reflexivity. Qed.
Lemma g_and_b a b : g_and (b2z a) (b2z b) = b2z (a && b). Proof. destruct a, b; reflexivity. Qed.
Lemma g_or_b a b : g_or (b2z a) (b2z b) = b2z (a || b). Proof. destruct a, b; reflexivity. Qed.
Lemma g_xor_b a b : g_xor (b2z a) (b2z b) = b2z (xorb a b). Proof. destruct a, b; reflexivity. Qed.
Lemma mod_small_eq a v : canon v -> a = v -> a mod p = v.
Proof. intros C ->. apply Z.mod_small, C. Qed.
Lemma g_select_b b x y : canon x -> canon y -> g_select (b2z b) x y = if b then x else y.
Proof. intros Hx Hy. destruct b; (apply mod_small_eq; [assumption|cbn [b2z]; lia]). Qed.
Lemma g_select_b0 (f : bool) x : canon x -> g_select (b2z f) 0 x = if f then 0 else x.
Proof. intros C. apply g_select_b; [apply canon_0|exact C]. Qed.
Lemma g_if_b b x y : canon x -> canon y -> g_if (b2z b) x y = if b then x else y.
Proof. intros Hx Hy. destruct b; (apply mod_small_eq; [assumption|cbn [b2z]; lia]). Qed.

Lemma bsum_bound bits : Forall bitZ bits -> 0 <= bsum bits < 2 ^ Z.of_nat (length bits).
Proof.
  induction bits as [|b r IH]; intros F; cbn [bsum length].
  - cbn. lia.
  - inversion F as [|? ? Hb Hr]; subst. specialize (IH Hr).
    rewrite Nat2Z.inj_succ, Z.pow_succ_r by lia. unfold bitZ in Hb. lia.
Qed.

Lemma bits_of_length x n : length (bits_of x n) = n.
Proof. revert x; induction n as [|n IH]; intros x; cbn [bits_of length]; [reflexivity|rewrite IH; reflexivity]. Qed.

Lemma bits_of_bits x n : Forall bitZ (bits_of x n).
Proof.
  revert x; induction n as [|n IH]; intros x; cbn [bits_of]; constructor; [|apply IH].
  unfold bitZ. pose proof (Z.mod_pos_bound x 2). lia.
Qed.

Lemma bsum_bits_of x n : 0 <= x < 2 ^ Z.of_nat n -> bsum (bits_of x n) = x.
Proof.
  revert x; induction n as [|n IH]; intros x Hx; cbn [bits_of bsum].
  - cbn in Hx. lia.
  - rewrite Nat2Z.inj_succ, Z.pow_succ_r in Hx by lia.
    assert (Hq : 0 <= x / 2 < 2 ^ Z.of_nat n).
    { clear IH. generalize dependent (2 ^ Z.of_nat n). intros. lia. }
    rewrite IH by exact Hq. lia.
Qed.

Lemma bits_unique bits : Forall bitZ bits -> bits_of (bsum bits) (length bits) = bits.
Proof.
  induction bits as [|b r IH]; intros F; cbn [bsum length bits_of]; [reflexivity|].
  inversion F as [|? ? Hb Hr]; subst.
  assert (E1 : (b + 2 * bsum r) mod 2 = b) by (unfold bitZ in Hb; lia).
  assert (E2 : (b + 2 * bsum r) / 2 = bsum r) by (unfold bitZ in Hb; lia).
  rewrite E1, E2, IH by assumption. reflexivity.
Qed.

Lemma pow2_63_lt_p n : (n <= 63)%nat -> 2 ^ Z.of_nat n < p.
Proof.
  intros Hn. apply Z.le_lt_trans with (2 ^ 63); [apply Z.pow_le_mono_r; lia|reflexivity].
Qed.

Lemma canon_below_pow2 n x : (n <= 63)%nat -> 0 <= x < 2 ^ Z.of_nat n -> canon x.
Proof.
  intros Hn Hx. split; [apply Hx|]. apply Z.lt_trans with (2 ^ Z.of_nat n); [apply Hx|apply pow2_63_lt_p, Hn].
Qed.

Lemma pow2_split a b : (a <= b)%nat -> 2 ^ Z.of_nat b = 2 ^ Z.of_nat (b - a) * 2 ^ Z.of_nat a.
Proof. intros L. rewrite <- Z.pow_add_r by lia. f_equal. lia. Qed.

Lemma halves_unique A n lo hi : 0 <= lo < A -> n = hi * A + lo -> (n mod A, n / A) = (lo, hi).
Proof.
  intros Hlo E. rewrite Z.mul_comm in E.
  rewrite <- (Z.mod_unique_pos n A hi lo Hlo E), <- (Z.div_unique_pos n A hi lo Hlo E). reflexivity.
Qed.

Lemma halves_exist A B x : 0 < A -> 0 <= x < B * A ->
  0 <= x mod A < A /\ 0 <= x / A < B /\ x / A * A + x mod A = x.
Proof.
  intros PA Hx. split; [apply Z.mod_pos_bound, PA|].
  split; [split; [apply Z.div_pos|apply Z.div_lt_upper_bound]; lia|].
  rewrite Z.mul_comm. symmetry. apply Z.div_mod. lia.
Qed.

(* digits in base A: lo < A and hi < B stand for a number below B * A, and every such number has them *)
Lemma halves_digits A B (Q : Z -> Z * Z -> Prop) : 0 < A ->
  ((exists lo hi, 0 <= lo < A /\ 0 <= hi < B /\ Q (hi * A + lo) (lo, hi)) <->
   (exists n, 0 <= n < B * A /\ Q n (n mod A, n / A))).
Proof.
  intros PA. split.
  - intros (lo & hi & Hlo & Hhi & HQ). exists (hi * A + lo).
    rewrite (halves_unique A _ lo hi Hlo eq_refl). split; [|exact HQ].
    pose proof (Z.mul_nonneg_nonneg hi A). pose proof (Z.mul_le_mono_nonneg_r (hi + 1) B A). lia.
  - intros (n & Hn & HQ). destruct (halves_exist A B n PA Hn) as (Hlo & Hhi & E).
    exists (n mod A), (n / A). rewrite E. auto.
Qed.

(* when B * A stays below p the recomposition mod p does not wrap, and the pair is that of x *)
Lemma halves_solutions A B x (post : Z * Z -> Prop) : 0 < A -> B * A < p -> 0 <= x < B * A ->
  ((exists lo hi, 0 <= lo < A /\ 0 <= hi < B /\ x = (hi * A + lo) mod p /\ post (lo, hi)) <->
   post (x mod A, x / A)).
Proof.
  intros PA AB Hx. etransitivity; [apply (halves_digits A B (fun n lh => x = n mod p /\ post lh)), PA|]. split.
  - intros (n & Hn & E & Hp). rewrite Z.mod_small in E by lia. subst n. exact Hp.
  - intros Hp. exists x. rewrite Z.mod_small by lia. auto.
Qed.

Section Prims.
  Variable H : list Z -> list Z.
  Notation rel := (rel H).
  Notation hon := (hon H).
  Notation refines := (refines H).
  Notation gdet := (gdet H).
  Notation det := (det H).

  Lemma rel_iseq {A} x y (k : Z -> Circ A) post : canon x -> canon y ->
    (rel (IsEq x y k) post <-> rel (k (if x =? y then 1 else 0)) post).
  Proof.
    intros Hx Hy. cbn [Core.rel]. split.
    - intros (e & inv & He & Hi & C1 & C2 & R).
      destruct (Z.eqb_spec x y) as [->|Hne].
      + (* equal_check reads 0 - (1 - e) = 0 *)
        rewrite fsub_diag, fmul_0_l in C2.
        apply (fsub_eq_0 0 (fsub 1 e) canon_0 (canon_fsub _ _)), eq_sym, (fsub_eq_0 1 e canon_1 He) in C2.
        subst e. exact R.
      + destruct (fmul_zero _ _ He (canon_fsub x y) C1) as [->|E]; [exact R|].
        contradiction (fsub_neq_0 x y Hx Hy Hne).
    - intros R. destruct (Z.eqb_spec x y) as [->|Hne].
      + exists 1, 0. split; [apply canon_1|]. split; [apply canon_0|].
        split; [rewrite fsub_diag; apply fmul_0_r|].
        split; [rewrite fsub_diag, fmul_0_l; reflexivity|exact R].
      + destruct (finv_exists _ (canon_fsub x y) (fsub_neq_0 x y Hx Hy Hne)) as (inv & Hinv & E).
        exists 0, inv. split; [apply canon_0|]. split; [exact Hinv|].
        split; [apply fmul_0_l|]. split; [rewrite E; reflexivity|exact R].
  Qed.

  Lemma refines_iseq {A} x y (k : Z -> Circ A) : canon x -> canon y ->
    refines (k (if x =? y then 1 else 0)) -> refines (IsEq x y k).
  Proof. intros Hx Hy Rk post. rewrite (rel_iseq x y k post Hx Hy). cbn [Core.hon]. apply Rk. Qed.

  (* split_le / range_check for widths below 64: unique decomposition *)
  Lemma rel_split {A} x n (k : list Z -> Circ A) post : canon x -> (1 <= n <= 63)%nat ->
    (rel (Split x n k) post <-> x < 2 ^ Z.of_nat n /\ rel (k (bits_of x n)) post).
  Proof.
    intros Hx Hn. cbn [Core.rel]. destruct n as [|n']; [lia|]. set (n := S n') in *. split.
    - intros (bits & L & B & S & R).
      pose proof (bsum_bound bits B) as Bd. rewrite L in Bd.
      pose proof (pow2_63_lt_p n ltac:(lia)) as Hp.
      assert (E : bsum bits = x) by (rewrite Z.mod_small in S by lia; exact S).
      split; [lia|]. rewrite <- E, <- L, bits_unique by assumption. exact R.
    - intros [Hlt R]. exists (bits_of x n). split; [apply bits_of_length|]. split; [apply bits_of_bits|].
      unfold canon in Hx. rewrite bsum_bits_of by lia. split; [apply Z.mod_small; exact Hx|exact R].
  Qed.

  Lemma gdet_split x n : canon x -> (1 <= n <= 63)%nat ->
    gdet (Split x n (fun bs => Ret bs)) (x <? 2 ^ Z.of_nat n) (bits_of x n).
  Proof.
    intros Hx Hn. split.
    - intros post. rewrite rel_split, Z.ltb_lt by assumption. reflexivity.
    - cbn [Core.hon]. destruct n; [lia|]. destruct (x <? _); reflexivity.
  Qed.

  (* range_check(x, n) = split_le(x, n) with the bits dropped *)
  Definition range_check (x : Z) (n : nat) : Circ unit := Split x n (fun _ => Ret tt).

  Lemma gdet_range_check x n : canon x -> (1 <= n <= 63)%nat ->
    gdet (range_check x n) (x <? 2 ^ Z.of_nat n) tt.
  Proof.
    intros Hx Hn. exact (gdet_bind_det H _ (fun _ => Ret tt) _ _ _ (gdet_split x n Hx Hn) (det_ret H tt)).
  Qed.

  Lemma rel_range_check x n post : canon x -> (1 <= n <= 63)%nat ->
    (rel (range_check x n) post <-> x < 2 ^ Z.of_nat n /\ post tt).
  Proof. intros Hx Hn. rewrite <- Z.ltb_lt. apply gdet_rel, gdet_range_check; assumption. Qed.

  Lemma hon_range_check x n : (1 <= n)%nat ->
    hon (range_check x n) = if x <? 2 ^ Z.of_nat n then Some tt else None.
  Proof. intros Hn. unfold range_check. cbn [Core.hon]. destruct n; [lia|]. destruct (x <? _); reflexivity. Qed.

  Lemma refines_range_check x n : canon x -> (1 <= n <= 63)%nat -> refines (range_check x n).
  Proof. intros Hx Hn. exact (gdet_refines H _ _ _ (gdet_range_check x n Hx Hn)). Qed.

  Definition split_low_high (x : Z) (n_log num_bits : nat) : Circ (Z * Z) :=
    Free2 (x mod 2 ^ Z.of_nat n_log) (x / 2 ^ Z.of_nat n_log) (fun lo hi =>
      _ <- range_check lo n_log ;;
      _ <- range_check hi (num_bits - n_log) ;;
      Assert x (g_mul_add hi (2 ^ Z.of_nat n_log) lo) (Ret (lo, hi))).

  (* relational content when both halves are 1..63 bits wide: two range facts and the recomposition mod p *)
  Lemma rel_split_low_high x a b post : (1 <= a <= 63)%nat -> (1 <= b - a <= 63)%nat ->
    (rel (split_low_high x a b) post <->
     exists lo hi, 0 <= lo < 2 ^ Z.of_nat a /\ 0 <= hi < 2 ^ Z.of_nat (b - a) /\
                   x = (hi * 2 ^ Z.of_nat a + lo) mod p /\ post (lo, hi)).
  Proof.
    intros Ha Hb. unfold split_low_high. cbn [Core.rel]. split.
    - intros (lo & hi & Clo & Chi & R).
      rewrite rel_bind, rel_range_check in R by assumption. destruct R as [Llo R].
      rewrite rel_bind, rel_range_check in R by assumption. destruct R as [Lhi [E R]].
      exists lo, hi. split; [split; [apply Clo|exact Llo]|]. split; [split; [apply Chi|exact Lhi]|].
      split; assumption.
    - intros (lo & hi & Blo & Bhi & E & R).
      assert (Clo : canon lo) by (apply (canon_below_pow2 a); [lia|exact Blo]).
      assert (Chi : canon hi) by (apply (canon_below_pow2 (b - a)); [lia|exact Bhi]).
      exists lo, hi. split; [exact Clo|]. split; [exact Chi|].
      rewrite rel_bind, rel_range_check by assumption. split; [apply Blo|].
      rewrite rel_bind, rel_range_check by assumption. split; [apply Bhi|].
      split; [exact E|exact R].
  Qed.

  Lemma hon_split_low_high x a b : canon x -> (1 <= a)%nat -> (1 <= b - a)%nat -> (b <= 64)%nat ->
    hon (split_low_high x a b) = Some (x mod 2 ^ Z.of_nat a, x / 2 ^ Z.of_nat a) \/
    hon (split_low_high x a b) = None.
  Proof.
    intros Hx Ha Hb Hb64. unfold split_low_high. cbn [Core.hon].
    rewrite hon_bind, hon_range_check by assumption.
    destruct (_ <? _); [|right; reflexivity].
    rewrite hon_bind, hon_range_check by assumption.
    destruct (_ <? _); [|right; reflexivity].
    cbn [Core.hon]. destruct (_ =? _); [left|right]; reflexivity.
  Qed.

  (* the honest low/high generator succeeds whenever the high part fits *)
  Lemma hon_split_low_high_exact x a b : canon x -> (1 <= a)%nat -> (1 <= b - a)%nat ->
    x / 2 ^ Z.of_nat a < 2 ^ Z.of_nat (b - a) ->
    hon (split_low_high x a b) = Some (x mod 2 ^ Z.of_nat a, x / 2 ^ Z.of_nat a).
  Proof.
    intros Hx Ha Hb Hhi. unfold split_low_high. cbn [Core.hon].
    assert (PA : 0 < 2 ^ Z.of_nat a) by (apply Z.pow_pos_nonneg; lia).
    rewrite hon_bind, hon_range_check by assumption.
    rewrite (proj2 (Z.ltb_lt _ _)) by (apply Z.mod_pos_bound, PA).
    rewrite hon_bind, hon_range_check by assumption.
    rewrite (proj2 (Z.ltb_lt _ _) Hhi).
    cbn [Core.hon]. unfold g_mul_add.
    rewrite (Z.mul_comm (x / _)), <- Z.div_mod by lia.
    rewrite Z.mod_small by exact Hx. rewrite Z.eqb_refl. reflexivity.
  Qed.

  (* below 64 bits the recomposition does not wrap, so the split is the integer one *)
  Lemma det_split_low_high x a b : (1 <= a)%nat -> (1 <= b - a)%nat -> (b <= 63)%nat ->
    0 <= x < 2 ^ Z.of_nat b ->
    det (split_low_high x a b) (x mod 2 ^ Z.of_nat a, x / 2 ^ Z.of_nat a).
  Proof.
    intros Ha Hb Hb63 Hx. pose proof (canon_below_pow2 b x Hb63 Hx) as Cx. pose proof (pow2_63_lt_p b Hb63) as AB.
    rewrite (pow2_split a b) in Hx, AB by lia.
    assert (PA : 0 < 2 ^ Z.of_nat a) by (apply Z.pow_pos_nonneg; lia).
    apply det_intro.
    - intros post. rewrite rel_split_low_high by lia. apply halves_solutions; assumption.
    - apply hon_split_low_high_exact; [exact Cx|exact Ha|exact Hb|apply (halves_exist _ _ x PA Hx)].
  Qed.
End Prims.
