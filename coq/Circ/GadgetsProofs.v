(* Proofs about the gadgets of common/src/gadgets.rs (model: Gadgets.v).
   Every gadget gets one lemma [det_X] or [gdet_X] (Core.v): when it is satisfiable, which output every
   witness of an adversarial prover is forced to, and that the honest generators compute it.  The
   [rel_X], [hon_X] and [refines_X] facts are its projections (the two [hon_] lemmas that need no canonicity
   hypothesis are proved on their own). *)
From V.Base Require Import Common.
From V.Circ Require Import Field Core Prims Gadgets.

Lemma pow2_32 : 2 ^ Z.of_nat 32 = two32. Proof. reflexivity. Qed.
Lemma pow2_33 : 2 ^ Z.of_nat 33 = 2 * two32. Proof. reflexivity. Qed.
Lemma pow2_64 : 2 ^ Z.of_nat 64 = two64. Proof. reflexivity. Qed.

Lemma canon_u32 v : 0 <= v < two32 -> canon v.
Proof. pose proof two33_lt_p. unfold canon. lia. Qed.
Lemma canon_lt_two64 x : canon x -> 0 <= x < two64.
Proof. pose proof p_two32. pose proof two32_pos. unfold canon. lia. Qed.
Lemma u32_mod x : 0 <= x mod two32 < two32.
Proof. apply Z.mod_pos_bound, two32_pos. Qed.
Lemma u32_div_u64 x : 0 <= x < two64 -> 0 <= x / two32 < two32.
Proof.
  rewrite two64_sq. intros Hx. pose proof two32_pos.
  split; [apply Z.div_pos|apply Z.div_lt_upper_bound]; lia.
Qed.
Lemma u32_div_canon x : canon x -> 0 <= x / two32 < two32.
Proof. intros Hx. apply u32_div_u64, canon_lt_two64, Hx. Qed.

(* comparing two numbers by their digits in base B *)
Lemma lex_pair_ltb B q1 r1 q2 r2 : 0 <= r1 < B -> 0 <= r2 < B ->
  (B * q1 + r1 <? B * q2 + r2) = (q1 <? q2) || ((q1 =? q2) && (r1 <? r2)).
Proof.
  intros H1 H2. apply eq_true_iff_eq. rewrite orb_true_iff, andb_true_iff, !Z.ltb_lt, Z.eqb_eq.
  split; [intros L|intros [L|[-> L]]; nia].
  assert (q1 <= q2) by nia. assert (q1 = q2 -> r1 < r2) by (intros ->; lia). lia.
Qed.
Lemma lex_pair_eqb B q1 r1 q2 r2 : 0 <= r1 < B -> 0 <= r2 < B ->
  (B * q1 + r1 =? B * q2 + r2) = (q1 =? q2) && (r1 =? r2).
Proof.
  intros H1 H2. apply eq_true_iff_eq. rewrite andb_true_iff, !Z.eqb_eq.
  split; [intros E|intros [-> ->]; reflexivity]. assert (q1 = q2) by nia. subst q2. lia.
Qed.

Lemma u64_lt_halves c x :
  (c / two32 <? x / two32) || ((c / two32 =? x / two32) && (c mod two32 <? x mod two32)) = (c <? x).
Proof.
  rewrite <- (lex_pair_ltb two32) by apply u32_mod. rewrite <- !Z.div_mod by discriminate. reflexivity.
Qed.

Lemma u64_eq_halves c x : (c / two32 =? x / two32) && (c mod two32 =? x mod two32) = (c =? x).
Proof.
  rewrite <- (lex_pair_eqb two32) by apply u32_mod. rewrite <- !Z.div_mod by discriminate. reflexivity.
Qed.

Lemma fold_left_rev {A B} (f : A -> B -> A) l i : fold_left f (rev l) i = fold_right (fun x y => f y x) i l.
Proof. rewrite <- (rev_involutive l) at 2. symmetry. apply (fold_left_rev_right (fun x y => f y x)). Qed.

(* lexicographic order on equal-length lists, most significant element first *)
Fixpoint lex_ltb (a b : list Z) : bool :=
  match a, b with
  | x :: xs, y :: ys => (x <? y) || ((x =? y) && lex_ltb xs ys)
  | _, _ => false
  end.

Lemma lex_ltb_irrefl a : lex_ltb a a = false.
Proof.
  induction a as [|x a IH]; cbn [lex_ltb]; [reflexivity|].
  rewrite IH, Z.ltb_irrefl, andb_false_r. reflexivity.
Qed.

(* one step of the fold of halves8_lt, which runs from the least significant pair up:
   [acc] = "the less significant part is <" *)
Definition lsf_step (acc : bool) (lr : Z * Z) : bool := (fst lr <? snd lr) || ((fst lr =? snd lr) && acc).

Lemma lex_ltb_fold lhs : forall rhs,
  lex_ltb lhs rhs = fold_right (fun lr acc => lsf_step acc lr) false (combine lhs rhs).
Proof.
  induction lhs as [|a lhs IH]; intros [|b rhs]; cbn [combine fold_right lex_ltb]; try reflexivity.
  rewrite <- IH. reflexivity.
Qed.

(* the bit comparator of is_const_less_than *)
Definition lt_step (st : Z * Z) (ab : Z * Z) : Z * Z :=
  let '(lt, eq) := st in
  let '(a, b) := ab in
  (g_or lt (g_and (g_and (g_not a) b) eq), g_and eq (g_not (g_xor a b))).

Lemma lt_loop_fold pairs : forall lt eq, lt_loop pairs lt eq = fst (fold_left lt_step pairs (lt, eq)).
Proof.
  induction pairs as [|[a b] r IH]; intros lt eq; cbn [lt_loop fold_left lt_step]; [reflexivity|apply IH].
Qed.

Lemma lt_step_bits (L E : bool) a b : bitZ a -> bitZ b ->
  lt_step (b2z L, b2z E) (a, b) = (b2z (L || (E && (a <? b))), b2z (E && (a =? b))).
Proof.
  intros [->| ->] [->| ->]; destruct L, E; reflexivity.
Qed.

(* folding from the most significant bit, the state is (a < b, a = b) of the bits seen *)
Lemma lt_fold_spec a_bits : forall b_bits, length a_bits = length b_bits ->
  Forall bitZ a_bits -> Forall bitZ b_bits ->
  fold_right (fun ab st => lt_step st ab) (0, 1) (combine a_bits b_bits) =
  (b2z (bsum a_bits <? bsum b_bits), b2z (bsum a_bits =? bsum b_bits)).
Proof.
  induction a_bits as [|a ar IH]; intros [|b br] L Fa Fb; try discriminate L; [reflexivity|].
  inversion Fa as [|? ? Ha Far]; subst. inversion Fb as [|? ? Hb Fbr]; subst. injection L as L.
  cbn [combine fold_right bsum]. rewrite (IH br L Far Fbr), lt_step_bits by assumption.
  rewrite (Z.add_comm a), (Z.add_comm b), lex_pair_ltb, lex_pair_eqb by (apply bitZ_bound; assumption).
  reflexivity.
Qed.

Lemma lt_loop_spec a_bits b_bits : length a_bits = length b_bits ->
  Forall bitZ a_bits -> Forall bitZ b_bits ->
  lt_loop (rev (combine a_bits b_bits)) 0 1 = b2z (bsum a_bits <? bsum b_bits).
Proof.
  intros L Fa Fb. rewrite lt_loop_fold, fold_left_rev, lt_fold_spec by assumption. reflexivity.
Qed.

Lemma narrow_loop (w : nat) c x : 0 <= c < 2 ^ Z.of_nat w -> 0 <= x < 2 ^ Z.of_nat w ->
  lt_loop (rev (combine (bits_of c w) (bits_of x w))) 0 1 = b2z (c <? x).
Proof.
  intros Hc Hx. rewrite lt_loop_spec.
  - rewrite !bsum_bits_of by assumption. reflexivity.
  - rewrite !bits_of_length. reflexivity.
  - apply bits_of_bits.
  - apply bits_of_bits.
Qed.

(* split_low_high(x, 32, 64) recomposes mod p: a 64-bit integer n stands for x iff n = x or n = x + p *)
Lemma mod_p_u64 n x : 0 <= n < two64 -> canon x -> (x = n mod p <-> n = x \/ n = x + p).
Proof.
  intros Hn Hx. pose proof p_two32. pose proof two33_lt_p. unfold canon in Hx.
  destruct (Z_lt_le_dec n p) as [L|L].
  - rewrite Z.mod_small by lia. lia.
  - rewrite <- (Z.mod_unique_pos n p 1 (n - p)) by lia. lia.
Qed.

(* the x + p alias of a small x: high half all ones, low half x + 1 *)
Lemma alias_halves x : 0 <= x < two32 - 1 -> ((x + p) mod two32, (x + p) / two32) = (x + 1, two32 - 1).
Proof. intros Hx. apply halves_unique; [lia|]. pose proof p_two32. pose proof two64_sq. lia. Qed.

Lemma split64_solutions x (post : Z * Z -> Prop) : canon x ->
  ((exists lo hi, 0 <= lo < two32 /\ 0 <= hi < two32 /\ x = (hi * two32 + lo) mod p /\ post (lo, hi)) <->
   (post (x mod two32, x / two32) \/ (x < two32 - 1 /\ post ((x + p) mod two32, (x + p) / two32)))).
Proof.
  intros Hx.
  etransitivity; [apply (halves_digits two32 two32 (fun n lh => x = n mod p /\ post lh)), two32_pos|].
  rewrite <- two64_sq. pose proof p_two32 as P. split.
  - intros (n & Hn & E & Hp). apply (mod_p_u64 n x Hn Hx) in E.
    destruct E as [->| ->]; [left; exact Hp|right; split; [lia|exact Hp]].
  - intros [Hp|[L Hp]].
    + exists x. split; [apply canon_lt_two64, Hx|]. split; [symmetry; apply Z.mod_small, Hx|exact Hp].
    + assert (Hn : 0 <= x + p < two64) by (unfold canon in Hx; lia).
      exists (x + p). split; [exact Hn|]. split; [apply (mod_p_u64 _ x Hn Hx); right; reflexivity|exact Hp].
Qed.

(* the wraparound test of split_canonical_u32_halves: hi = 2^32 - 1 and lo <> 0 *)
Definition wraps (lo hi : Z) : bool := (hi =? two32 - 1) && negb (lo =? 0).

Lemma wraps_canonical x : canon x -> wraps (x mod two32) (x / two32) = false.
Proof.
  intros Hx. unfold wraps.
  destruct (Z.eqb_spec (x / two32) (two32 - 1)) as [Eh|]; [|reflexivity].
  destruct (Z.eqb_spec (x mod two32) 0) as [|El]; [reflexivity|exfalso].
  pose proof (Z.div_mod x two32 ltac:(discriminate)) as R. rewrite Eh in R. pose proof (u32_mod x).
  pose proof p_two32. pose proof two64_sq. unfold canon in Hx. lia.
Qed.
Lemma wraps_alias x : 0 <= x -> wraps (x + 1) (two32 - 1) = true.
Proof. intros Hx. unfold wraps. rewrite Z.eqb_refl, (proj2 (Z.eqb_neq (x + 1) 0)) by lia. reflexivity. Qed.

(* u32_lt reads bit 32 of x + 2^32 - y *)
Lemma u32_lt_t x y : 0 <= x < two32 -> 0 <= y < two32 -> fsub (fadd x two32) y = x + two32 - y.
Proof. intros Hx Hy. pose proof two33_lt_p. rewrite fadd_small, fsub_small by lia. reflexivity. Qed.
Lemma u32_lt_bit x y : 0 <= x < two32 -> 0 <= y < two32 -> (x + two32 - y) / two32 = b2z (negb (x <? y)).
Proof.
  intros Hx Hy. destruct (Z.ltb_spec x y); cbn [negb b2z]; [apply Z.div_small; lia|].
  symmetry. apply (Z.div_unique_pos _ two32 1 (x - y)); lia.
Qed.

Lemma list_eqb_4 a c : length a = 4%nat -> length c = 4%nat ->
  list_eqb a c = (nth 0 a 0 =? nth 0 c 0) && (nth 1 a 0 =? nth 1 c 0) &&
                 ((nth 2 a 0 =? nth 2 c 0) && (nth 3 a 0 =? nth 3 c 0)).
Proof.
  intros La Lc.
  destruct a as [|a0 [|a1 [|a2 [|a3 [|? ?]]]]]; try discriminate La.
  destruct c as [|c0 [|c1 [|c2 [|c3 [|? ?]]]]]; try discriminate Lc.
  cbn [nth list_eqb]. rewrite andb_true_r, !andb_assoc. reflexivity.
Qed.

Section GadgetsProofs.
  Variable H : list Z -> list Z.
  Notation rel := (rel H).
  Notation hon := (hon H).
  Notation refines := (refines H).
  Notation det := (det H).
  Notation gdet := (gdet H).

  Lemma refines_hon_rel {A} (c : Circ A) (v : A) :
    refines c -> hon c = Some v -> forall post, rel c post <-> post v.
  Proof. intros R E post. rewrite (R post), E. tauto. Qed.

  Lemma det_is_equal x y : canon x -> canon y -> det (is_equal x y) (b2z (x =? y)).
  Proof. intros Hx Hy. apply det_intro; [intros post; exact (rel_iseq H x y (fun e => Ret e) post Hx Hy)|reflexivity]. Qed.

  Lemma hon_is_equal x y : hon (is_equal x y) = Some (b2z (x =? y)).
  Proof. reflexivity. Qed.
  Lemma refines_is_equal x y : canon x -> canon y -> refines (is_equal x y).
  Proof. intros Hx Hy. eapply gdet_refines, det_is_equal; assumption. Qed.

  (* split_low_high(x, 32, 64) has two solutions for x < 2^32 - 1, one otherwise *)
  Lemma rel_split_low_high_64 x post : canon x ->
    (rel (split_low_high x 32 64) post <->
     (post (x mod two32, x / two32) \/
      (x < two32 - 1 /\ post ((x + p) mod two32, (x + p) / two32)))).
  Proof.
    intros Hx. rewrite rel_split_low_high by lia. change (64 - 32)%nat with 32%nat. rewrite pow2_32.
    apply split64_solutions, Hx.
  Qed.

  Lemma hon_split_low_high_64 x : canon x ->
    hon (split_low_high x 32 64) = Some (x mod two32, x / two32).
  Proof.
    intros Hx. rewrite <- pow2_32. apply hon_split_low_high_exact; [exact Hx|lia|lia|].
    change (64 - 32)%nat with 32%nat. rewrite pow2_32. apply u32_div_canon, Hx.
  Qed.

  (* split_canonical_u32_halves: the wraparound test rejects the alias *)
  Lemma gdet_canonical_tail lo hi : 0 <= lo < two32 -> 0 <= hi < two32 ->
    gdet (hi_is_max <- is_equal hi (two32 - 1) ;;
          lo_is_zero <- is_equal lo 0 ;;
          Assert (g_and hi_is_max (g_not lo_is_zero)) 0 (Ret (lo, hi))) (negb (wraps lo hi)) (lo, hi).
  Proof.
    intros Hlo Hhi. eapply gdet_conv.
    - eapply gdet_dbind; [apply det_is_equal; apply canon_u32; lia|]. cbv beta.
      eapply gdet_dbind; [apply det_is_equal; [apply canon_u32, Hlo|apply canon_0]|]. cbv beta.
      apply gdet_assert, gdet_ret.
    - rewrite g_not_b, g_and_b, b2z_eqb_0, andb_true_r. reflexivity.
    - reflexivity.
  Qed.

  Lemma det_split_canonical x : canon x -> det (split_canonical_u32_halves x) (x mod two32, x / two32).
  Proof.
    intros Hx. pose proof (gdet_canonical_tail _ _ (u32_mod x) (u32_div_canon x Hx)) as G.
    rewrite (wraps_canonical x Hx) in G.
    unfold split_canonical_u32_halves. apply det_intro.
    - intros post. rewrite rel_bind, rel_split_low_high_64 by assumption. cbv beta iota.
      rewrite (det_rel H _ _ post G). split; [intros [R|[L R]]; [exact R|exfalso]|intros R; left; exact R].
      destruct Hx as [Hx _]. injection (alias_halves x (conj Hx L)) as Al Ah. rewrite Al, Ah in R.
      assert (B : 0 <= x + 1 < two32 /\ 0 <= two32 - 1 < two32) by (clear - Hx L; lia). destruct B as [Bl Bh].
      apply (gdet_rel H _ _ _ _ (gdet_canonical_tail (x + 1) (two32 - 1) Bl Bh)) in R.
      rewrite wraps_alias in R by lia. destruct R as [W _]. discriminate W.
    - rewrite hon_bind, hon_split_low_high_64 by assumption. exact (det_hon H _ _ G).
  Qed.

  Lemma det_u32_lt x y : 0 <= x < two32 -> 0 <= y < two32 -> det (u32_lt x y) (b2z (x <? y)).
  Proof.
    intros Hx Hy. unfold u32_lt. rewrite u32_lt_t by assumption.
    eapply det_bind; [apply det_split_low_high; [lia|lia|lia|rewrite pow2_33; lia]|].
    cbv beta iota. rewrite pow2_32, u32_lt_bit, g_not_b, negb_involutive by assumption. apply det_ret.
  Qed.

  Lemma refines_u32_lt x y : 0 <= x < two32 -> 0 <= y < two32 -> refines (u32_lt x y).
  Proof. intros Hx Hy. eapply gdet_refines, det_u32_lt; assumption. Qed.

  Definition u32_pair (lr : Z * Z) : Prop := 0 <= fst lr < two32 /\ 0 <= snd lr < two32.

  Lemma det_halves_lt_loop ps : forall acc, Forall u32_pair ps ->
    det (halves_lt_loop ps (b2z acc)) (b2z (fold_left lsf_step ps acc)).
  Proof.
    induction ps as [|[l r] ps IH]; intros acc F; cbn [halves_lt_loop fold_left]; [apply det_ret|].
    inversion F as [|? ? [Hl Hr] F']; subst. cbn [fst snd] in Hl, Hr.
    eapply det_bind; [apply det_u32_lt; assumption|]. cbv beta.
    eapply det_bind; [apply det_is_equal; apply canon_u32; assumption|]. cbv beta zeta.
    rewrite g_and_b, g_or_b. apply IH, F'.
  Qed.

  Lemma u32_pairs_combine lhs : forall rhs,
    Forall (fun v => 0 <= v < two32) lhs -> Forall (fun v => 0 <= v < two32) rhs ->
    Forall u32_pair (rev (combine lhs rhs)).
  Proof.
    intros rhs Fl Fr. apply Forall_rev. revert rhs Fr.
    induction Fl as [|a lhs Ha Fl IH]; intros rhs Fr; cbn [combine]; [constructor|].
    destruct Fr as [|b rhs Hb Fr]; constructor; [split; assumption|apply IH; assumption].
  Qed.

  Lemma det_halves8_lt lhs rhs :
    Forall (fun v => 0 <= v < two32) lhs -> Forall (fun v => 0 <= v < two32) rhs ->
    det (halves8_lt lhs rhs) (b2z (lex_ltb lhs rhs)).
  Proof.
    intros Fl Fr. rewrite lex_ltb_fold, <- fold_left_rev.
    apply (det_halves_lt_loop _ false), u32_pairs_combine; assumption.
  Qed.

  Lemma refines_halves8_lt lhs rhs : length lhs = length rhs ->
    Forall (fun v => 0 <= v < two32) lhs -> Forall (fun v => 0 <= v < two32) rhs ->
    refines (halves8_lt lhs rhs).
  Proof. intros _ Fl Fr. eapply gdet_refines, det_halves8_lt; assumption. Qed.

  Lemma det_is_const_less_than_64 c x : 0 <= c < two64 -> canon x ->
    det (is_const_less_than_canonical_u64 c x) (b2z (c <? x)).
  Proof.
    intros Hc Hx. unfold is_const_less_than_canonical_u64.
    pose proof (u32_mod x) as Bxl. pose proof (u32_div_canon x Hx) as Bxh.
    pose proof (u32_mod c) as Bcl. pose proof (u32_div_u64 c Hc) as Bch.
    eapply det_bind; [apply det_split_canonical, Hx|]. cbv beta iota zeta.
    eapply det_bind; [apply det_u32_lt; assumption|]. cbv beta.
    eapply det_bind; [apply det_u32_lt; assumption|]. cbv beta.
    eapply det_bind; [apply det_is_equal; apply canon_u32; assumption|]. cbv beta zeta.
    rewrite g_and_b, g_or_b, u64_lt_halves. apply det_ret.
  Qed.

  (* every width: satisfiable iff x < 2^w (always, for w = 64), and then the output is (c < x) *)
  Lemma gdet_is_const_less_than (w : nat) c x :
    (1 <= w <= 64)%nat -> 0 <= c < 2 ^ Z.of_nat w -> canon x ->
    gdet (is_const_less_than c x w) (x <? 2 ^ Z.of_nat w) (b2z (c <? x)).
  Proof.
    intros Hw Hc Hx. unfold is_const_less_than. destruct (Nat.eqb_spec w 64) as [->|Hn].
    - rewrite pow2_64 in *. rewrite (proj2 (Z.ltb_lt x two64)) by apply canon_lt_two64, Hx.
      apply det_is_const_less_than_64; assumption.
    - eapply gdet_conv_val.
      + eapply gdet_bind_det; [apply gdet_split; [exact Hx|lia]|]. cbv beta zeta. apply det_ret.
      + intros L. apply Z.ltb_lt in L. apply narrow_loop; [exact Hc|unfold canon in Hx; lia].
  Qed.

  Lemma refines_is_const_less_than (w : nat) c x :
    (1 <= w <= 64)%nat -> 0 <= c < 2 ^ Z.of_nat w -> canon x ->
    refines (is_const_less_than c x w).
  Proof. intros Hw Hc Hx. eapply gdet_refines, gdet_is_const_less_than; assumption. Qed.

  Lemma gdet_enforce_target_less_than_const (w : nat) ub x :
    (1 <= w <= 64)%nat -> 0 < ub -> ub - 1 < 2 ^ Z.of_nat w -> canon x ->
    gdet (enforce_target_less_than_const x ub w) (x <? ub) tt.
  Proof.
    intros Hw Hub Hfit Hx. unfold enforce_target_less_than_const. eapply gdet_conv.
    - eapply gdet_bind; [apply gdet_is_const_less_than; [exact Hw|lia|exact Hx]|]. cbv beta.
      apply gdet_assert, gdet_ret.
    - rewrite b2z_eqb_0, andb_true_r. apply eq_true_iff_eq.
      rewrite andb_true_iff, negb_true_iff, Z.ltb_ge, !Z.ltb_lt. lia.
    - reflexivity.
  Qed.

  Lemma det_bytes_digest_eq a c : length a = 4%nat -> length c = 4%nat ->
    Forall canon a -> Forall canon c -> det (bytes_digest_eq a c) (b2z (list_eqb a c)).
  Proof.
    intros La Lc Fa Fc. rewrite (list_eqb_4 a c La Lc). unfold bytes_digest_eq.
    do 4 (eapply det_bind; [apply det_is_equal; apply canon_nth; assumption|]; cbv beta).
    cbv zeta. rewrite !g_and_b. apply det_ret.
  Qed.

  (* the honest run needs no canonicity *)
  Lemma hon_bytes_digest_eq a c : length a = 4%nat -> length c = 4%nat ->
    hon (bytes_digest_eq a c) = Some (b2z (list_eqb a c)).
  Proof.
    intros La Lc. rewrite (list_eqb_4 a c La Lc). unfold bytes_digest_eq.
    do 4 (rewrite hon_bind, hon_is_equal; cbv beta iota).
    cbn [Core.hon]. rewrite !g_and_b. reflexivity.
  Qed.

  Lemma refines_bytes_digest_eq a c : length a = 4%nat -> length c = 4%nat ->
    Forall canon a -> Forall canon c -> refines (bytes_digest_eq a c).
  Proof. intros La Lc Fa Fc. eapply gdet_refines, det_bytes_digest_eq; assumption. Qed.

  (* contrast: the raw 64-bit split DOES leave witness freedom (the x + p alias) *)
  Lemma split_low_high_64_alias_sat x : 0 <= x < two32 - 1 ->
    rel (split_low_high x 32 64) (fun lh => lh = (x + 1, two32 - 1)).
  Proof.
    intros Hx. apply rel_split_low_high_64; [apply canon_u32; lia|].
    right. split; [lia|apply alias_halves, Hx].
  Qed.

  Lemma split_low_high_64_not_refines x : 0 <= x < two32 - 1 -> ~ refines (split_low_high x 32 64).
  Proof.
    intros Hx R. pose proof (split_low_high_64_alias_sat x Hx) as S. apply R in S.
    rewrite hon_split_low_high_64 in S by (apply canon_u32; lia).
    injection S as E _. rewrite Z.mod_small in E by lia. lia.
  Qed.

  (* a plain 64-bit comparison on the raw split would be flippable: with the alias halves of x = 0
     the high-half comparison "0 < hi" comes out true although 0 < 0 is false *)
  Lemma alias_would_flip : b2z (0 <? (0 + p) / two32) = 1 /\ b2z (0 <? 0) = 0.
  Proof. split; reflexivity. Qed.
End GadgetsProofs.
