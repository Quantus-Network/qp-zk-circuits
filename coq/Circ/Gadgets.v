(* common/src/gadgets.rs, transcribed line by line as [Circ] programs (model only - proofs are in
   GadgetsProofs.v / Sorting.v). *)
From Coq Require Import ZArith Lia List Bool.
From V.Base Require Import Common.
From V.Circ Require Import Field Core Prims.
Import ListNotations.
Open Scope Z_scope.

Definition is_equal (x y : Z) : Circ Z := IsEq x y (fun e => Ret e).

(* gadgets.rs:214 split_canonical_u32_halves *)
Definition split_canonical_u32_halves (x : Z) : Circ (Z * Z) :=
  '(lo, hi) <- split_low_high x 32 64 ;;
  hi_is_max <- is_equal hi (two32 - 1) ;;
  lo_is_zero <- is_equal lo 0 ;;
  let lo_nonzero := g_not lo_is_zero in
  let in_wraparound := g_and hi_is_max lo_nonzero in
  Assert in_wraparound 0 (Ret (lo, hi)).

(* gadgets.rs:191 u32_lt: t = x + 2^32 - y, bit 32 of t is (x >= y) *)
Definition u32_lt (x y : Z) : Circ Z :=
  let x_shifted := fadd x two32 in
  let t := fsub x_shifted y in
  '(_, ge_bit) <- split_low_high t 32 33 ;;
  Ret (g_not ge_bit).

(* gadgets.rs:81 is_const_less_than_canonical_u64 *)
Definition is_const_less_than_canonical_u64 (left right : Z) : Circ Z :=
  '(right_lo, right_hi) <- split_canonical_u32_halves right ;;
  let left_lo := left mod two32 in
  let left_hi := left / two32 in
  hi_lt <- u32_lt left_hi right_hi ;;
  lo_lt <- u32_lt left_lo right_lo ;;
  hi_eq <- is_equal left_hi right_hi ;;
  let lo_lt_and_hi_eq := g_and hi_eq lo_lt in
  Ret (g_or hi_lt lo_lt_and_hi_eq).

(* the comparator loop of is_const_less_than: pairs (a_i, b_i) from the most significant bit down *)
Fixpoint lt_loop (pairs : list (Z * Z)) (lt eq : Z) : Z :=
  match pairs with
  | [] => lt
  | (a, b) :: r =>
      let not_a := g_not a in
      let not_a_and_b := g_and not_a b in
      let this_lt := g_and not_a_and_b eq in
      let lt' := g_or lt this_lt in
      let a_xor_b := g_xor a b in
      let not_xor := g_not a_xor_b in
      let eq' := g_and eq not_xor in
      lt_loop r lt' eq'
  end.

(* gadgets.rs:40 is_const_less_than(left, right, n_log); the builder-time asserts
   (0 < n_log <= 64, left < 2^n_log) are the preconditions of the theorems *)
Definition is_const_less_than (left right : Z) (n_log : nat) : Circ Z :=
  if (n_log =? 64)%nat then is_const_less_than_canonical_u64 left right
  else
    right_bits <- Split right n_log (fun bs => Ret bs) ;;
    let left_bits := bits_of left n_log in
    Ret (lt_loop (rev (combine left_bits right_bits)) 0 1).

(* gadgets.rs:101 enforce_target_less_than_const *)
Definition enforce_target_less_than_const (target upper_bound_exclusive : Z) (n_log : nat) : Circ unit :=
  overflow <- is_const_less_than (upper_bound_exclusive - 1) target n_log ;;
  Assert overflow 0 (Ret tt).

(* gadgets.rs:144 bytes_digest_eq on 4-limb digests *)
Definition bytes_digest_eq (a c : list Z) : Circ Z :=
  e0 <- is_equal (nth 0 a 0) (nth 0 c 0) ;;
  e1 <- is_equal (nth 1 a 0) (nth 1 c 0) ;;
  e2 <- is_equal (nth 2 a 0) (nth 2 c 0) ;;
  e3 <- is_equal (nth 3 a 0) (nth 3 c 0) ;;
  let e01 := g_and e0 e1 in
  let e23 := g_and e2 e3 in
  Ret (g_and e01 e23).

(* gadgets.rs:240 halves8_lt: fold from the least significant half up; [pairs] is given least
   significant FIRST (i = 7 down to 0 in the Rust loop) *)
Fixpoint halves_lt_loop (pairs : list (Z * Z)) (lt : Z) : Circ Z :=
  match pairs with
  | [] => Ret lt
  | (l, r) :: rest =>
      lt_i <- u32_lt l r ;;
      eq_i <- is_equal l r ;;
      let carry := g_and eq_i lt in
      halves_lt_loop rest (g_or lt_i carry)
  end.
Definition halves8_lt (lhs rhs : list Z) : Circ Z := halves_lt_loop (rev (combine lhs rhs)) 0.

(* ---- gadgets.rs:285 sort_digests4 ---- *)
(* ingress: one canonical split per limb; halves most significant first [hi0; lo0; hi1; lo1; ...] *)
Fixpoint ingress_limbs (d : list Z) : Circ (list Z) :=
  match d with
  | [] => Ret []
  | x :: r =>
      '(lo, hi) <- split_canonical_u32_halves x ;;
      rest <- ingress_limbs r ;;
      Ret (hi :: lo :: rest)
  end.
Fixpoint ingress (ds : list (list Z)) : Circ (list (list Z)) :=
  match ds with
  | [] => Ret []
  | d :: r => h <- ingress_limbs d ;; rest <- ingress r ;; Ret (h :: rest)
  end.

Definition select_halves (flag : Z) (x y : list Z) : list Z :=
  map (fun '(a, b) => g_select flag a b) (combine x y).

(* one round: compare-and-swap the pairs (0,1), (2,3), ... of the list it is given *)
Fixpoint cas_pairs (v : list (list Z)) : Circ (list (list Z)) :=
  match v with
  | a :: b :: r =>
      lhs_lt <- halves8_lt a b ;;
      rest <- cas_pairs r ;;
      Ret (select_halves lhs_lt a b :: select_halves lhs_lt b a :: rest)
  | _ => Ret v
  end.
Definition sort_round (round : nat) (v : list (list Z)) : Circ (list (list Z)) :=
  if Nat.even round then cas_pairs v
  else match v with
       | [] => Ret []
       | x :: r => rest <- cas_pairs r ;; Ret (x :: rest)
       end.
Fixpoint sort_rounds (rounds : list nat) (v : list (list Z)) : Circ (list (list Z)) :=
  match rounds with
  | [] => Ret v
  | r :: rs => v' <- sort_round r v ;; sort_rounds rs v'
  end.

(* egress: limb_j = 2^32 * halves[2j] + halves[2j+1] *)
Fixpoint egress_limbs (h : list Z) : list Z :=
  match h with
  | hi :: lo :: r => g_mul_const_add two32 hi lo :: egress_limbs r
  | _ => []
  end.

Definition sort_digests4 (values : list (list Z)) : Circ (list (list Z)) :=
  let n := length values in
  if (n <=? 1)%nat then Ret values
  else
    v <- ingress values ;;
    v' <- sort_rounds (seq 0 n) v ;;
    Ret (map egress_limbs v').
