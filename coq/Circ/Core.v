(* One program text, several semantics.

   A circuit-building Rust function `fn g(builder, targets..) -> targets` is transcribed as a Gallina
   function returning a [Circ A] tree (a free monad): targets are field values (shallow embedding),
   `let t = builder.op(..)` becomes a bind.  Arithmetic gadgets whose output wire is fixed by a gate
   equation are pure field functions (Prims.v); the nodes of the tree are exactly the places where a
   plonky2 circuit (a) constrains ([Assert]), (b) hashes ([Hash]), or (c) introduces wires whose
   values are chosen by a *witness generator* and only constrained afterwards ([IsEq], [Split],
   [Free2]) - the places where an adversarial prover has freedom.

   Semantics:
     [rel]   what an arbitrary (adversarial) prover can satisfy        - object of soundness theorems
     [hon]   what the honest witness generators compute (executable)   - run against the real prover
     [chk]   constraints evaluated on an explicit hint stream          - sound for [rel]
     [ovr]   [chk] with the hints taken from an override table, else   - run against hint-overridden
             from the honest generators (below)                          witness generation
     [trace] the sequence of hint-allocating calls on the honest path  - circuit fingerprint
   The hash function is a parameter [H] (Poseidon2 sponge, 4 output felts); it is never axiomatised. *)
From V.Base Require Import Common.
From V.Circ Require Import Field.

Inductive Circ (A : Type) : Type :=
| Ret (a : A)
| Assert (x y : Z) (k : Circ A)                         (* connect / assert_zero: x = y            *)
| Hash (l : list Z) (k : list Z -> Circ A)              (* hash_n_to_hash_no_pad_p2 -> 4 felts     *)
| IsEq (x y : Z) (k : Z -> Circ A)                      (* builder.is_equal: hint wires (equal,inv) *)
| Split (x : Z) (n : nat) (k : list Z -> Circ A)        (* builder.split_le(x, n): n BaseSum<2> limbs *)
| Free2 (h1 h2 : Z) (k : Z -> Z -> Circ A).             (* two virtual targets set by a generator
                                                           (LowHighGenerator); h1 h2 = honest values *)
Arguments Ret {A} a.
Arguments Assert {A} x y k.
Arguments Hash {A} l k.
Arguments IsEq {A} x y k.
Arguments Split {A} x n k.
Arguments Free2 {A} h1 h2 k.

Fixpoint bind {A B} (c : Circ A) (f : A -> Circ B) : Circ B :=
  match c with
  | Ret a => f a
  | Assert x y k => Assert x y (bind k f)
  | Hash l k => Hash l (fun h => bind (k h) f)
  | IsEq x y k => IsEq x y (fun e => bind (k e) f)
  | Split x n k => Split x n (fun bs => bind (k bs) f)
  | Free2 h1 h2 k => Free2 h1 h2 (fun a b => bind (k a b) f)
  end.

Notation "x <- c ;; k" := (bind c (fun x => k)) (at level 61, c at next level, right associativity).
Notation "' pat <- c ;; k" := (bind c (fun x => match x with pat => k end))
  (at level 61, pat pattern, c at next level, right associativity).

(* Sigma b_i 2^i, little endian *)
Fixpoint bsum (bits : list Z) : Z :=
  match bits with
  | [] => 0
  | b :: r => b + 2 * bsum r
  end.
Fixpoint bits_of (x : Z) (n : nat) : list Z :=
  match n with
  | O => []
  | S m => (x mod 2) :: bits_of (x / 2) m
  end.

Section Semantics.
  Variable H : list Z -> list Z.

  (* adversarial prover: every hint wire is an arbitrary field element *)
  Fixpoint rel {A} (c : Circ A) (post : A -> Prop) : Prop :=
    match c with
    | Ret a => post a
    | Assert x y k => x = y /\ rel k post
    | Hash l k => rel (k (H l)) post
    | IsEq x y k =>
        exists e inv, canon e /\ canon inv /\
          fmul e (fsub x y) = 0 /\                              (* not_equal_check = 0 *)
          fsub (fmul (fsub x y) inv) (fsub 1 e) = 0 /\          (* equal_check = 0     *)
          rel (k e) post
    | Split x n k =>
        match n with
        | O => rel (k []) post                                  (* split_le(_, 0) adds no constraint *)
        | _ => exists bits, length bits = n /\ Forall bitZ bits /\ (bsum bits) mod p = x /\ rel (k bits) post
        end
    | Free2 _ _ k => exists a b, canon a /\ canon b /\ rel (k a b) post
    end.

  (* honest generators *)
  Fixpoint hon {A} (c : Circ A) : option A :=
    match c with
    | Ret a => Some a
    | Assert x y k => if x =? y then hon k else None
    | Hash l k => hon (k (H l))
    | IsEq x y k => hon (k (if x =? y then 1 else 0))
    | Split x n k =>
        match n with
        | O => hon (k [])
        | _ => if x <? 2 ^ Z.of_nat n then hon (k (bits_of x n)) else None
        end
    | Free2 h1 h2 k => hon (k h1 h2)
    end.

  Fixpoint take_hints (n : nat) (hs : list Z) : option (list Z * list Z) :=
    match n with
    | O => Some ([], hs)
    | S m => match hs with
             | [] => None
             | h :: r => match take_hints m r with
                         | Some (a, rest) => Some (h :: a, rest)
                         | None => None
                         end
             end
    end.

  (* explicit (possibly adversarial) hint stream; every hint must be a canonical field element *)
  Fixpoint chk {A} (c : Circ A) (hs : list Z) : option (A * list Z) :=
    match c with
    | Ret a => Some (a, hs)
    | Assert x y k => if x =? y then chk k hs else None
    | Hash l k => chk (k (H l)) hs
    | IsEq x y k =>
        match hs with
        | e :: inv :: r =>
            if is_canon e && is_canon inv && (fmul e (fsub x y) =? 0)
               && (fsub (fmul (fsub x y) inv) (fsub 1 e) =? 0)
            then chk (k e) r else None
        | _ => None
        end
    | Split x n k =>
        match n with
        | O => chk (k []) hs
        | _ => match take_hints n hs with
               | Some (bits, r) =>
                   if forallb is_bit bits && ((bsum bits) mod p =? x) then chk (k bits) r else None
               | None => None
               end
        end
    | Free2 _ _ k =>
        match hs with
        | a :: b :: r => if is_canon a && is_canon b then chk (k a b) r else None
        | _ => None
        end
    end.

  (* fingerprint: hint-allocating calls on the honest path: 1 = is_equal, 2 n = split_le n, 3 = low/high pair *)
  Fixpoint trace {A} (c : Circ A) : list Z :=
    match c with
    | Ret _ => []
    | Assert _ _ k => trace k
    | Hash l k => trace (k (H l))
    | IsEq x y k => 1 :: trace (k (if x =? y then 1 else 0))
    | Split x n k => match n with O => trace (k []) | _ => 2 :: Z.of_nat n :: trace (k (bits_of x n)) end
    | Free2 h1 h2 k => 3 :: trace (k h1 h2)
    end.

  Lemma rel_mono {A} (c : Circ A) (P Q : A -> Prop) :
    (forall a, P a -> Q a) -> rel c P -> rel c Q.
  Proof.
    induction c as [a|x y k IH|l k IH|x y k IH|x n k IH|h1 h2 k IH]; cbn [rel]; intros PQ.
    - auto.
    - intros [E R]. split; [exact E|apply IH; assumption].
    - apply IH; assumption.
    - intros (e & inv & He & Hi & C1 & C2 & R). exists e, inv. repeat (split; [assumption|]). eapply IH; eassumption.
    - destruct n as [|n]; [apply IH; assumption|].
      intros (bits & L & B & S & R). exists bits. repeat (split; [assumption|]). eapply IH; eassumption.
    - intros (a & b & Ha & Hb & R). exists a, b. repeat (split; [assumption|]). eapply IH; eassumption.
  Qed.

  Lemma rel_bind {A B} (c : Circ A) (f : A -> Circ B) (post : B -> Prop) :
    rel (bind c f) post <-> rel c (fun a => rel (f a) post).
  Proof.
    induction c as [a|x y k IH|l k IH|x y k IH|x n k IH|h1 h2 k IH]; cbn [bind rel].
    - tauto.
    - rewrite IH. tauto.
    - apply IH.
    - split; intros (e & inv & He & Hi & C1 & C2 & R); exists e, inv; repeat (split; [assumption|]); apply IH; assumption.
    - destruct n as [|n]; [apply IH|].
      split; intros (bits & L & Bt & S & R); exists bits; repeat (split; [assumption|]); apply IH; assumption.
    - split; intros (a & b & Ha & Hb & R); exists a, b; repeat (split; [assumption|]); apply IH; assumption.
  Qed.

  Lemma hon_bind {A B} (c : Circ A) (f : A -> Circ B) :
    hon (bind c f) = match hon c with Some a => hon (f a) | None => None end.
  Proof.
    induction c as [a|x y k IH|l k IH|x y k IH|x n k IH|h1 h2 k IH]; cbn [bind hon].
    - reflexivity.
    - destruct (x =? y); [apply IH|reflexivity].
    - apply IH.
    - apply IH.
    - destruct n as [|n]; [apply IH|]. destruct (x <? _); [apply IH|reflexivity].
    - apply IH.
  Qed.

  (* a continuation that ignores the output of a satisfiable circuit is itself satisfiable *)
  Lemma rel_bind_const {A B} (c : Circ A) (k : Circ B) post : rel (bind c (fun _ => k)) post -> rel k post.
  Proof.
    induction c as [a|x y c IH|l c IH|x y c IH|x n c IH|h1 h2 c IH]; cbn [bind rel]; intros R.
    - exact R.
    - destruct R as [_ R]. apply IH, R.
    - eapply IH, R.
    - destruct R as (e & inv & _ & _ & _ & _ & R). eapply IH, R.
    - destruct n as [|n]; [eapply IH, R|]. destruct R as (bits & _ & _ & _ & R). eapply IH, R.
    - destruct R as (a & b & _ & _ & R). eapply IH, R.
  Qed.
  Lemma hon_bind_const {A B} (c : Circ A) (k : Circ B) b : hon (bind c (fun _ => k)) = Some b -> hon k = Some b.
  Proof. rewrite hon_bind. destruct (hon c); [auto|discriminate]. Qed.

  Lemma trace_bind {A B} (c : Circ A) (f : A -> Circ B) :
    trace (bind c f) = trace c ++ match hon c with Some a => trace (f a) | None => [] end
    \/ hon c = None.
  Proof.
    induction c as [a|x y k IH|l k IH|x y k IH|x n k IH|h1 h2 k IH]; cbn [bind hon trace].
    - left; reflexivity.
    - destruct (x =? y); [apply IH|right; reflexivity].
    - apply IH.
    - destruct (IH (if x =? y then 1 else 0)) as [E|E]; [left; rewrite E; reflexivity|right; exact E].
    - destruct n as [|n]; [apply IH|]. destruct (x <? _); [|right; reflexivity].
      destruct (IH (bits_of x (S n))) as [E|E]; [left; cbn [app]; rewrite E; reflexivity|right; exact E].
    - destruct (IH h1 h2) as [E|E]; [left; rewrite E; reflexivity|right; exact E].
  Qed.

  Lemma take_hints_length n hs bits r : take_hints n hs = Some (bits, r) -> length bits = n /\ hs = bits ++ r.
  Proof.
    revert hs bits r; induction n as [|n IH]; cbn [take_hints]; intros hs bits r E.
    - inversion E; subst. split; reflexivity.
    - destruct hs as [|h hs']; [discriminate|]. destruct (take_hints n hs') as [[a rest]|] eqn:T; [|discriminate].
      inversion E; subst. destruct (IH _ _ _ T) as [L ->]. split; [cbn; lia|reflexivity].
  Qed.

  (* hints that pass the boolean checks of [chk] and [ovr] are witnesses for [rel] *)
  Lemma rel_iseq_checked {A} x y (k : Z -> Circ A) post e inv :
    is_canon e && is_canon inv && (fmul e (fsub x y) =? 0)
      && (fsub (fmul (fsub x y) inv) (fsub 1 e) =? 0) = true ->
    rel (k e) post -> rel (IsEq x y k) post.
  Proof.
    rewrite !andb_true_iff, !is_canon_spec, !Z.eqb_eq. intros [[[He Hi] C1] C2] R.
    exists e, inv. auto.
  Qed.
  Lemma rel_split_checked {A} x n (k : list Z -> Circ A) post bits : length bits = S n ->
    forallb is_bit bits && (bsum bits mod p =? x) = true ->
    rel (k bits) post -> rel (Split x (S n) k) post.
  Proof.
    rewrite andb_true_iff, forallb_is_bit, Z.eqb_eq. intros L [B S] R. exists bits. auto.
  Qed.
  Lemma rel_free2_checked {A} h1 h2 (k : Z -> Z -> Circ A) post a b :
    is_canon a && is_canon b = true -> rel (k a b) post -> rel (Free2 h1 h2 k) post.
  Proof. rewrite andb_true_iff, !is_canon_spec. intros [Ha Hb] R. exists a, b. auto. Qed.

  Lemma chk_sound {A} (c : Circ A) : forall hs a rest, chk c hs = Some (a, rest) -> rel c (fun a' => a' = a).
  Proof.
    induction c as [a0|x y k IH|l k IH|x y k IH|x n k IH|h1 h2 k IH]; cbn [chk]; intros hs a rest E.
    - inversion E; reflexivity.
    - destruct (Z.eqb_spec x y) as [Exy|]; [|discriminate]. split; [exact Exy|eapply IH; eassumption].
    - eapply IH; eassumption.
    - destruct hs as [|e [|inv r]]; try discriminate.
      destruct (_ && _) eqn:G in E; [|discriminate].
      eapply rel_iseq_checked; [exact G|eapply IH; eassumption].
    - destruct n as [|n]; [eapply IH; eassumption|].
      destruct (take_hints (S n) hs) as [[bits r]|] eqn:T; [|discriminate].
      destruct (_ && _) eqn:G in E; [|discriminate].
      eapply rel_split_checked; [apply (take_hints_length _ _ _ _ T)|exact G|eapply IH; eassumption].
    - destruct hs as [|a0 [|b0 r]]; try discriminate.
      destruct (_ && _) eqn:G in E; [|discriminate].
      eapply rel_free2_checked; [exact G|eapply IH; eassumption].
  Qed.

  (* refinement: "no witness freedom" *)
  Definition refines {A} (c : Circ A) : Prop :=
    forall post, rel c post <-> match hon c with Some a => post a | None => False end.

  Lemma refines_ret {A} (a : A) : refines (Ret a).
  Proof. intro post; cbn; tauto. Qed.

  Lemma refines_bind {A B} (c : Circ A) (f : A -> Circ B) :
    refines c -> (forall a, hon c = Some a -> refines (f a)) -> refines (bind c f).
  Proof.
    intros Rc Rf post. rewrite rel_bind, hon_bind. rewrite (Rc (fun a => rel (f a) post)).
    destruct (hon c) as [a|]; [apply Rf; reflexivity|tauto].
  Qed.

  (* unique satisfying output + "if the honest witness fails, every witness fails" *)
  Lemma refines_unique {A} (c : Circ A) : refines c ->
    forall a b, rel c (fun x => x = a) -> rel c (fun x => x = b) -> a = b.
  Proof.
    intros R a b Ha Hb. apply R in Ha. apply R in Hb. destruct (hon c); [congruence|contradiction].
  Qed.
  Lemma refines_honest_fails {A} (c : Circ A) : refines c -> hon c = None -> forall post, ~ rel c post.
  Proof. intros R E post Hr. apply R in Hr. rewrite E in Hr. exact Hr. Qed.
  Lemma refines_sat_iff {A} (c : Circ A) : refines c ->
    ((exists a, rel c (fun x => x = a)) <-> exists a, hon c = Some a).
  Proof.
    intros R. split.
    - intros [a Ha]. apply R in Ha. destruct (hon c) as [a'|]; [exists a'; reflexivity|contradiction].
    - intros [a Ha]. exists a. apply R. rewrite Ha. reflexivity.
  Qed.

  (* Determined circuits.  [gdet c ok v]: [c] is satisfiable iff [ok]; then [v] is its only reachable
     output, and the honest generators compute it.  [det c v] is the unconditional case.  A gadget or
     circuit gets ONE such lemma, proved by the composition laws below; its [rel], [hon] and [refines]
     facts are projections. *)
  Definition gdet {A} (c : Circ A) (ok : bool) (v : A) : Prop :=
    (forall post, rel c post <-> ok = true /\ post v) /\ hon c = if ok then Some v else None.
  Definition det {A} (c : Circ A) (v : A) : Prop := gdet c true v.

  Lemma gdet_rel {A} (c : Circ A) ok v post : gdet c ok v -> (rel c post <-> ok = true /\ post v).
  Proof. intros [R _]. apply R. Qed.
  Lemma gdet_hon {A} (c : Circ A) ok v : gdet c ok v -> hon c = if ok then Some v else None.
  Proof. intros [_ E]. exact E. Qed.
  Lemma det_rel {A} (c : Circ A) v post : det c v -> (rel c post <-> post v).
  Proof. intros [R _]. rewrite R. tauto. Qed.
  Lemma det_hon {A} (c : Circ A) v : det c v -> hon c = Some v.
  Proof. exact (gdet_hon c true v). Qed.
  Lemma det_intro {A} (c : Circ A) v : (forall post, rel c post <-> post v) -> hon c = Some v -> det c v.
  Proof. intros R E. split; [intros post; rewrite R; tauto|exact E]. Qed.

  Lemma gdet_conv {A} (c : Circ A) ok ok' v v' : gdet c ok v -> ok = ok' -> v = v' -> gdet c ok' v'.
  Proof. intros G -> ->. exact G. Qed.
  (* the output only matters where the circuit is satisfiable *)
  Lemma gdet_conv_val {A} (c : Circ A) ok v v' : gdet c ok v -> (ok = true -> v = v') -> gdet c ok v'.
  Proof.
    intros G E. destruct ok; [rewrite <- (E eq_refl); exact G|]. destruct G as [R Eh].
    split; [intros post; rewrite R; split; intros [X _]; discriminate X|exact Eh].
  Qed.

  Lemma det_ret {A} (a : A) : det (Ret a) a.
  Proof. apply det_intro; [intros post; reflexivity|reflexivity]. Qed.
  Lemma det_ret_eq {A} (a b : A) : a = b -> det (Ret a) b.
  Proof. intros ->. apply det_ret. Qed.
  Lemma gdet_ret {A} (a : A) : gdet (Ret a) true a.
  Proof. exact (det_ret a). Qed.

  Lemma gdet_bind {A B} (c : Circ A) (f : A -> Circ B) ok1 ok2 v w :
    gdet c ok1 v -> gdet (f v) ok2 w -> gdet (bind c f) (ok1 && ok2) w.
  Proof.
    intros [Rc Hc] [Rf Hf]. split.
    - intros post. rewrite rel_bind, Rc, Rf, andb_true_iff. tauto.
    - rewrite hon_bind, Hc. destruct ok1; [exact Hf|reflexivity].
  Qed.
  (* its instances in which a part is unconditional, with the flag of the composite reduced *)
  Lemma det_bind {A B} (c : Circ A) (f : A -> Circ B) v w : det c v -> det (f v) w -> det (bind c f) w.
  Proof. exact (gdet_bind c f true true v w). Qed.
  Lemma gdet_dbind {A B} (c : Circ A) (f : A -> Circ B) ok v w :
    det c v -> gdet (f v) ok w -> gdet (bind c f) ok w.
  Proof. exact (gdet_bind c f true ok v w). Qed.
  Lemma gdet_bind_det {A B} (c : Circ A) (f : A -> Circ B) ok v w :
    gdet c ok v -> det (f v) w -> gdet (bind c f) ok w.
  Proof. rewrite <- (andb_true_r ok) at 2. exact (gdet_bind c f ok true v w). Qed.

  (* the continuation matters only where the first part is satisfiable *)
  Lemma gdet_bind_false {A B} (c : Circ A) (f : A -> Circ B) v w : gdet c false v -> gdet (bind c f) false w.
  Proof.
    intros [R E]. split; [|rewrite hon_bind, E; reflexivity].
    intros post. rewrite rel_bind, R. split; intros [X _]; discriminate X.
  Qed.

  Lemma gdet_assert {A} x y (k : Circ A) ok v : gdet k ok v -> gdet (Assert x y k) ((x =? y) && ok) v.
  Proof.
    intros [R E]. split.
    - intros post. cbn [rel]. rewrite R, andb_true_iff, Z.eqb_eq. tauto.
    - cbn [hon]. destruct (x =? y); [exact E|reflexivity].
  Qed.
  Lemma gdet_hash {A} l (k : list Z -> Circ A) ok v : gdet (k (H l)) ok v -> gdet (Hash l k) ok v.
  Proof. intros G. exact G. Qed.
  Lemma det_hash {A} l (k : list Z -> Circ A) v : det (k (H l)) v -> det (Hash l k) v.
  Proof. intros D. exact D. Qed.

  Lemma gdet_refines {A} (c : Circ A) ok v : gdet c ok v -> refines c.
  Proof. intros [R E] post. rewrite R, E. destruct ok; [tauto|]. split; [intros [X _]; discriminate|tauto]. Qed.
  (* every satisfying witness yields [v]; one exists iff [ok] *)
  Lemma gdet_output {A} (c : Circ A) ok v post : gdet c ok v -> rel c post -> post v.
  Proof. intros [R _] Hr. apply R in Hr. apply Hr. Qed.
  Lemma gdet_sat_iff {A} (c : Circ A) ok v : gdet c ok v ->
    ((exists out, rel c (fun o => o = out)) <-> ok = true).
  Proof.
    intros [R _]. split; [intros [out Hr]; apply R in Hr; apply Hr|].
    intros ->. exists v. apply R. split; reflexivity.
  Qed.
End Semantics.

Arguments refines H {A} c.

(* Hint overrides.  The correspondence harness re-runs plonky2's witness generation with the outputs
   of selected generators replaced (EqualityGenerator#i -> (equal, inv); LowHighGenerator#i ->
   (low, high); BaseSplitGenerator#i -> the limbs of the i-th split_le), every other generator running
   honestly *on the possibly deviated values*, and then evaluates all constraints.  [ovr] is the model
   of exactly that: it evaluates the constraints as [chk] does, with every hint answered from the override
   table, else by the honest generator.  Every constraint is evaluated, also on honest hints, so [ovr_sound]
   holds generically. *)
(* inverse by the extended Euclidean algorithm (fuel 200 > 1.45 * 64 steps); its correctness is never
   assumed: [ovr] evaluates the constraint the hint has to satisfy *)
Fixpoint egcd_inv (fuel : nat) (r0 r1 t0 t1 : Z) : Z :=
  match fuel with
  | O => t0
  | S f => if r1 =? 0 then t0 else
             let q := r0 / r1 in egcd_inv f r1 (r0 - q * r1) t1 (t0 - q * t1)
  end.
Definition finv (d : Z) : Z := (egcd_inv 200 p (d mod p) 0 1) mod p.

Fixpoint ovr_find (o : list (Z * list Z)) (i : nat) : option (list Z) :=
  match o with
  | [] => None
  | (k, v) :: r => if k =? Z.of_nat i then Some v else ovr_find r i
  end.

Record overrides := mkOvr { o_eq : list (Z * list Z); o_lh : list (Z * list Z); o_sp : list (Z * list Z) }.

Section Ovr.
  Variable H : list Z -> list Z.
  Variable o : overrides.

  Fixpoint ovr {A} (c : Circ A) (ne nl ns : nat) : option A :=
    match c with
    | Ret a => Some a
    | Assert x y k => if x =? y then ovr k ne nl ns else None
    | Hash l k => ovr (k (H l)) ne nl ns
    | IsEq x y k =>
        let hint := match ovr_find (o_eq o) ne with
                    | Some [e; inv] => (e, inv)
                    | _ => (if x =? y then 1 else 0, finv (fsub x y))
                    end in
        let '(e, inv) := hint in
        if is_canon e && is_canon inv && (fmul e (fsub x y) =? 0)
           && (fsub (fmul (fsub x y) inv) (fsub 1 e) =? 0)
        then ovr (k e) (S ne) nl ns else None
    | Split x n k =>
        match n with
        | O => ovr (k []) ne nl ns
        | _ =>
          let bits := match ovr_find (o_sp o) ns with
                      | Some bs => bs
                      | None => bits_of x n
                      end in
          if (length bits =? n)%nat && forallb is_bit bits && ((bsum bits) mod p =? x)
          then ovr (k bits) ne nl (S ns) else None
        end
    | Free2 h1 h2 k =>
        let hint := match ovr_find (o_lh o) nl with
                    | Some [a; b] => (a, b)
                    | _ => (h1, h2)
                    end in
        let '(a, b) := hint in
        if is_canon a && is_canon b then ovr (k a b) ne (S nl) ns else None
    end.

  Lemma ovr_sound {A} (c : Circ A) : forall ne nl ns a, ovr c ne nl ns = Some a -> rel H c (fun a' => a' = a).
  Proof.
    induction c as [a0|x y k IH|l k IH|x y k IH|x n k IH|h1 h2 k IH]; cbn [ovr]; intros ne nl ns a E.
    - inversion E; reflexivity.
    - destruct (Z.eqb_spec x y) as [Exy|]; [|discriminate]. split; [exact Exy|eapply IH; eassumption].
    - eapply IH; eassumption.
    - destruct (match ovr_find (o_eq o) ne with Some [e; inv] => _ | _ => _ end) as [e inv].
      destruct (_ && _) eqn:G in E; [|discriminate].
      eapply rel_iseq_checked; [exact G|eapply IH; eassumption].
    - destruct n as [|n]; [eapply IH; eassumption|].
      set (bits := match ovr_find (o_sp o) ns with Some bs => bs | None => bits_of x (S n) end) in *.
      destruct (Nat.eqb_spec (length bits) (S n)) as [L|]; [|discriminate]. cbn [andb] in E.
      destruct (_ && _) eqn:G in E; [|discriminate].
      eapply rel_split_checked; [exact L|exact G|eapply IH; eassumption].
    - destruct (match ovr_find (o_lh o) nl with Some [a; b] => _ | _ => _ end) as [a0 b0].
      destruct (_ && _) eqn:G in E; [|discriminate].
      eapply rel_free2_checked; [exact G|eapply IH; eassumption].
  Qed.
End Ovr.
