(* sort_digests4 (common/src/gadgets.rs:285, model Gadgets.v) refines the pure odd-even transposition
   network of SortNet.v on the digests, ordered lexicographically with limb 0 most significant, and that
   network is insertion sort ([sort_spec]). *)
From Coq Require Import Permutation Sorted.
From V.Base Require Import Common.
From V.Circ Require Import Field Core Prims Gadgets GadgetsProofs SortNet.

(* strict lexicographic order on integer lists, head most significant; total on ALL lists (a proper
   prefix is smaller), equal to [lex_ltb] on lists of equal length *)
Fixpoint lexlt (a b : list Z) : bool :=
  match a, b with
  | [], [] => false
  | [], _ :: _ => true
  | _ :: _, [] => false
  | x :: xs, y :: ys => (x <? y) || ((x =? y) && lexlt xs ys)
  end.

Lemma lexlt_cons_true x xs y ys :
  lexlt (x :: xs) (y :: ys) = true <-> x < y \/ (x = y /\ lexlt xs ys = true).
Proof. cbn [lexlt]. rewrite orb_true_iff, andb_true_iff, Z.ltb_lt, Z.eqb_eq. tauto. Qed.
Lemma lexlt_cons_false x xs y ys :
  lexlt (x :: xs) (y :: ys) = false <-> y <= x /\ (x <> y \/ lexlt xs ys = false).
Proof. cbn [lexlt]. rewrite orb_false_iff, andb_false_iff, Z.ltb_ge, Z.eqb_neq. tauto. Qed.

Lemma lexlt_irrefl a : lexlt a a = false.
Proof.
  induction a as [|x a IH]; [reflexivity|]. apply lexlt_cons_false. split; [lia|right; exact IH].
Qed.
Lemma lexlt_trans a : forall b c, lexlt a b = true -> lexlt b c = true -> lexlt a c = true.
Proof.
  induction a as [|x a IH]; intros [|y b] [|z c] A B; try discriminate; try reflexivity.
  apply lexlt_cons_true in A. apply lexlt_cons_true in B. apply lexlt_cons_true.
  destruct A as [A|[A1 A2]]; destruct B as [B|[B1 B2]]; try (left; lia).
  right. split; [lia|]. eapply IH; eassumption.
Qed.
Lemma lexlt_antisym a : forall b, lexlt a b = false -> lexlt b a = false -> a = b.
Proof.
  induction a as [|x a IH]; intros [|y b] A B; try discriminate; try reflexivity.
  apply lexlt_cons_false in A. apply lexlt_cons_false in B.
  destruct A as [A1 A2]; destruct B as [B1 B2].
  assert (E : x = y) by lia. subst y. f_equal.
  destruct A2 as [A2|A2]; [lia|]. destruct B2 as [B2|B2]; [lia|]. apply IH; assumption.
Qed.
Lemma lexlt_negtrans a b c : lexlt a b = false -> lexlt b c = false -> lexlt a c = false.
Proof.
  intros A B. destruct (lexlt a c) eqn:C; [|reflexivity]. destruct (lexlt b a) eqn:D.
  - rewrite (lexlt_trans b a c D C) in B. discriminate B.
  - rewrite (lexlt_antisym a b A D), B in C. discriminate C.
Qed.
Lemma lex_ltb_lexlt a : forall b, length a = length b -> lex_ltb a b = lexlt a b.
Proof.
  induction a as [|x a IH]; intros [|y b] L; cbn [length] in L; try discriminate; [reflexivity|].
  cbn [lex_ltb lexlt]. rewrite IH by lia. reflexivity.
Qed.

(* order on digests = lists of limbs compared as integers, limb 0 most significant *)
Definition digest_ltb : list Z -> list Z -> bool := lexlt.
Definition digest_le (a b : list Z) : Prop := digest_ltb b a = false.
Definition sort_spec (values : list (list Z)) : list (list Z) := isort digest_ltb values.

Lemma sort_spec_perm values : Permutation (sort_spec values) values.
Proof. apply isort_perm. Qed.
Lemma sort_spec_sorted values : StronglySorted digest_le (sort_spec values).
Proof. apply (isort_sorted lexlt lexlt_irrefl lexlt_trans lexlt_negtrans). Qed.
Lemma sort_spec_unique values out :
  Permutation out values -> StronglySorted digest_le out -> out = sort_spec values.
Proof.
  intros P S.
  apply (sorted_perm_unique lexlt lexlt_antisym); [exact S|apply sort_spec_sorted|].
  etransitivity; [exact P|symmetry; apply sort_spec_perm].
Qed.
Lemma oets_sort_spec values : oets digest_ltb values = sort_spec values.
Proof. apply (oets_isort_all lexlt lexlt_irrefl lexlt_trans lexlt_negtrans lexlt_antisym). Qed.

Fixpoint halves (d : list Z) : list Z :=
  match d with
  | [] => []
  | x :: r => (x / two32) :: (x mod two32) :: halves r
  end.

Lemma halves_length d : length (halves d) = (2 * length d)%nat.
Proof. induction d as [|x r IH]; cbn [halves length]; lia. Qed.
Lemma halves_u32 d : Forall canon d -> Forall (fun v => 0 <= v < two32) (halves d).
Proof.
  induction 1 as [|x r Hx F IH]; cbn [halves]; constructor; [apply u32_div_canon, Hx|].
  constructor; [apply u32_mod|exact IH].
Qed.
Lemma egress_halves d : Forall canon d -> egress_limbs (halves d) = d.
Proof.
  induction 1 as [|x r Hx F IH]; cbn [halves egress_limbs]; [reflexivity|]. rewrite IH. f_equal.
  unfold g_mul_const_add. rewrite <- Z.div_mod by discriminate. apply Z.mod_small. exact Hx.
Qed.
Lemma halves_order_pair x y r :
  (x / two32 <? y / two32) || ((x / two32 =? y / two32) && ((x mod two32 <? y mod two32) || ((x mod two32 =? y mod two32) && r)))
  = (x <? y) || ((x =? y) && r).
Proof.
  rewrite <- (u64_lt_halves x y), <- (u64_eq_halves x y), andb_orb_distrib_r, orb_assoc, andb_assoc.
  reflexivity.
Qed.
Lemma lexlt_halves a : forall b, lexlt (halves a) (halves b) = lexlt a b.
Proof.
  induction a as [|x a IH]; intros [|y b]; try reflexivity.
  cbn [halves lexlt]. rewrite IH. apply halves_order_pair.
Qed.

Definition u32s (h : list Z) : Prop := Forall (fun v => 0 <= v < two32) h.
Definition good_halves (m : nat) (h : list Z) : Prop := length h = m /\ u32s h.
Definition good_digest (m : nat) (d : list Z) : Prop := length d = m /\ Forall canon d.

Lemma select_halves_b (f : bool) x : forall y, length x = length y -> Forall canon x -> Forall canon y ->
  select_halves (b2z f) x y = if f then x else y.
Proof.
  unfold select_halves.
  induction x as [|a x IH]; intros [|b y] L Fx Fy; cbn [length] in L; try discriminate.
  - destruct f; reflexivity.
  - inversion Fx; subst. inversion Fy; subst. cbn [combine map].
    rewrite IH by (try lia; assumption). rewrite g_select_b by assumption. destruct f; reflexivity.
Qed.
Lemma u32s_canon h : u32s h -> Forall canon h.
Proof. apply Forall_impl. intros v. apply canon_u32. Qed.

Section Sorting.
  Variable H : list Z -> list Z.
  Notation refines := (refines H).
  Notation det := (det H).

  Lemma det_ingress_limbs d : Forall canon d -> det (ingress_limbs d) (halves d).
  Proof.
    induction 1 as [|x r Hx F IH]; cbn [ingress_limbs halves]; [apply det_ret|].
    eapply det_bind; [apply det_split_canonical, Hx|]. cbv beta iota.
    eapply det_bind; [exact IH|]. apply det_ret.
  Qed.
  Lemma det_ingress ds : Forall (Forall canon) ds -> det (ingress ds) (map halves ds).
  Proof.
    induction 1 as [|d r Hd F IH]; cbn [ingress map]; [apply det_ret|].
    eapply det_bind; [apply det_ingress_limbs, Hd|].
    eapply det_bind; [exact IH|]. apply det_ret.
  Qed.

  Lemma det_cas_pairs m v : Forall (good_halves m) v -> det (cas_pairs v) (cas_pairs_pure lexlt v).
  Proof.
    induction v as [|a|a b r IH] using list_ind2; intros F; cbn [cas_pairs cas_pairs_pure];
      [apply det_ret|apply det_ret|].
    inversion F as [|? ? [La Ua] F']; subst. inversion F' as [|? ? [Lb Ub] Fr]; subst.
    rewrite <- (lex_ltb_lexlt a b) by congruence.
    eapply det_bind; [apply det_halves8_lt; assumption|].
    eapply det_bind; [apply IH, Fr|]. apply det_ret_eq.
    pose proof (u32s_canon _ Ua). pose proof (u32s_canon _ Ub).
    rewrite !select_halves_b by (try assumption; congruence).
    destruct (lex_ltb a b); reflexivity.
  Qed.
  Lemma good_cas_pairs m v : Forall (good_halves m) v -> Forall (good_halves m) (cas_pairs_pure lexlt v).
  Proof. intros F. eapply Permutation_Forall; [symmetry; apply cas_pairs_perm|exact F]. Qed.
  Lemma det_sort_round m r v : Forall (good_halves m) v -> det (sort_round r v) (sort_round_pure lexlt r v).
  Proof.
    intros F. unfold sort_round, sort_round_pure. destruct (Nat.even r); [eapply det_cas_pairs, F|].
    destruct v as [|x v]; [apply det_ret|]. inversion F; subst.
    eapply det_bind; [eapply det_cas_pairs; eassumption|]. apply det_ret.
  Qed.
  Lemma det_sort_rounds m rs : forall v, Forall (good_halves m) v ->
    det (sort_rounds rs v) (sort_rounds_pure lexlt rs v).
  Proof.
    induction rs as [|r rs IH]; intros v F; cbn [sort_rounds sort_rounds_pure]; [apply det_ret|].
    eapply det_bind; [eapply det_sort_round, F|]. apply IH.
    eapply Permutation_Forall; [symmetry; apply sort_round_perm|exact F].
  Qed.

  (* the gadget: any number of digests, any common limb count *)
  Theorem det_sort_digests4_oets m values : Forall (good_digest m) values ->
    det (sort_digests4 values) (oets digest_ltb values).
  Proof.
    intros G. unfold sort_digests4, digest_ltb. destruct (Nat.leb_spec (length values) 1) as [L|L].
    - apply det_ret_eq. symmetry. apply oets_short, L.
    - assert (Fc : Forall (Forall canon) values) by (eapply Forall_impl; [|exact G]; intros d [_ C]; exact C).
      assert (Gh : Forall (good_halves (2 * m)) (map halves values)).
      { apply Forall_map. eapply Forall_impl; [|exact G]. intros d [Ld C].
        split; [rewrite halves_length, Ld; reflexivity|apply halves_u32, C]. }
      eapply det_bind; [apply det_ingress, Fc|].
      eapply det_bind; [eapply det_sort_rounds, Gh|]. apply det_ret_eq.
      replace (length values) with (length (map halves values)) by apply map_length.
      change (sort_rounds_pure lexlt (seq 0 (length (map halves values))) (map halves values))
        with (oets lexlt (map halves values)).
      rewrite <- (oets_map_embed lexlt lexlt halves) by (intros a b; apply lexlt_halves).
      rewrite map_map. rewrite <- (map_id (oets lexlt values)) at 2.
      apply map_ext_Forall. apply oets_Forall.
      eapply Forall_impl; [|exact Fc]. intros d C. apply egress_halves, C.
  Qed.

  Theorem det_sort_digests4 m values : Forall (good_digest m) values ->
    det (sort_digests4 values) (sort_spec values).
  Proof. intros G. rewrite <- oets_sort_spec. apply det_sort_digests4_oets with (m := m), G. Qed.

  (* no witness freedom, any length *)
  Theorem refines_sort_digests4 values :
    Forall (fun d => length d = 4%nat /\ Forall canon d) values -> refines (sort_digests4 values).
  Proof. intros G. eapply gdet_refines. apply (det_sort_digests4_oets 4 values G). Qed.
End Sorting.
