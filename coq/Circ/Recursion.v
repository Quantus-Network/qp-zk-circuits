(* The recursive layer of the two aggregation circuits (C11): WHICH verifier key each child proof is checked
   against, and the shape checks of the constructors.

     wormhole/aggregator/src/common/recursive.rs                       add_recursive_verifiers
     wormhole/aggregator/src/private_batch/circuit/circuit_logic.rs    PrivateBatchCircuit::new
     wormhole/aggregator/src/public_batch/circuit/circuit_logic.rs     PublicBatchCircuit::new

   add_recursive_verifiers does
       let vk = builder.constant_verifier_data(inner_verifier_only);        // ONE key, constants of the circuit
       for _ in 0..n { let p = builder.add_virtual_proof_with_pis(common); builder.verify_proof(&p, &vk, common); }
   so the only witness of the layer is the list of child proofs; the key is part of the circuit (it is hashed into
   the circuit digest).  In the model a built circuit is a record holding the key it was built with, and the layer
   is the predicate "every child verifies under THAT key" conjoined with the wrapper relation of
   Circ/PrivateBatch.v resp. Circ/PublicBatch.v over the children's public inputs.

   What is NOT modelled: the verify_proof gadget itself (FRI, Merkle caps, challenges).  [Verify] stands for the
   native verification function, and "the gadget is satisfiable exactly when native verification accepts" is part
   of the trusted modelling of plonky2; the harness (harness/src/bin/recursion.rs) validates it by execution on
   own and foreign proofs. *)
From V.Base Require Import Common.
From V.Generated Require Import Constants.
From V.Circ Require Import Field Core PrivateBatch PublicBatch.
From V.Sys Require Parsers.

Definition E_COUNT : Z := 2.
Definition E_PI_LEN : Z := 3.

Definition count_ok (n : Z) : res unit :=
  match Parsers.validate_proof_count n with Ok _ => Ok tt | Err _ => Err E_COUNT end.

Section Recursion.
  Variable VK : Type.                                 (* verifier-only data: circuit digest + constants/sigmas cap *)
  Variable PROOF : Type.
  Variable Verify : VK -> list Z -> PROOF -> bool.    (* native plonky2 verification under a key *)
  Variable H : list Z -> list Z.                      (* Poseidon2 sponge, as in Circ/Core.v *)

  Record child := mkChild { ch_pis : list Z; ch_proof : PROOF }.

  (* add_recursive_verifiers, relationally: the key is a parameter fixed at build time, not a witness *)
  Definition recursive_verifiers (vk : VK) (children : list child) : Prop :=
    Forall (fun c => Verify vk (ch_pis c) (ch_proof c) = true) children.
  Definition recursive_verifiers_b (vk : VK) (children : list child) : bool :=
    forallb (fun c => Verify vk (ch_pis c) (ch_proof c)) children.

  (* ---- private batch over leaf proofs *)
  Record private_batch_circuit := mkPB { pb_vk : VK; pb_n : Z }.

  (* PrivateBatchCircuit::new(config, leaf_common, leaf_verifier_only, n_leaf), config valid *)
  Definition private_batch_new (leaf_vk : VK) (leaf_num_public_inputs : Z) (n_leaf : Z) : res private_batch_circuit :=
    _ <-? count_ok n_leaf ;;
    _ <-? guard (leaf_num_public_inputs =? PR_LEAF_PI_LEN) E_PI_LEN ;;
    Ok (mkPB leaf_vk n_leaf).

  (* satisfiability of the whole circuit by an arbitrary prover: witness = child proofs (+ dummy pre-images and
     the hint wires quantified inside [rel]) *)
  Definition private_batch_sat (c : private_batch_circuit) (children : list child) (pre : list (list Z))
             (out : list Z) : Prop :=
    zlen children = pb_n c /\
    recursive_verifiers (pb_vk c) children /\
    rel H (private_batch (map ch_pis children) pre) (fun o => o = out).

  (* ---- public batch over private-batch proofs *)
  Record public_batch_circuit := mkPUB { pub_vk : VK; pub_m : Z; pub_n : Z }.

  (* PublicBatchCircuit::new(config, private_batch_common, private_batch_verifier_only, n_inner, num_leaves) *)
  Definition public_batch_new (pb_vk' : VK) (pb_num_public_inputs : Z) (n_inner num_leaves : Z)
    : res public_batch_circuit :=
    _ <-? count_ok n_inner ;;
    _ <-? count_ok num_leaves ;;
    _ <-? guard (pb_num_public_inputs =? Parsers.pr_pi_len num_leaves) E_PI_LEN ;;
    Ok (mkPUB pb_vk' n_inner num_leaves).

  Definition public_batch_sat (c : public_batch_circuit) (address : list Z) (children : list child)
             (out : list Z) : Prop :=
    zlen children = pub_m c /\
    recursive_verifiers (pub_vk c) children /\
    rel H (public_batch (pub_n c) address (map ch_pis children)) (fun o => o = out).
End Recursion.

Arguments mkChild {PROOF} _ _.
Arguments ch_pis {PROOF} _.
Arguments ch_proof {PROOF} _.
Arguments mkPB {VK} _ _.
Arguments pb_vk {VK} _.
Arguments pb_n {VK} _.
Arguments mkPUB {VK} _ _ _.
Arguments pub_vk {VK} _.
Arguments pub_m {VK} _.
Arguments pub_n {VK} _.

(* ---------------------------------------------------------------- the executable instance used by the harness
   A proof is (the key of the circuit that produced it, did its own circuit's prover produce a valid proof).
   Verification under [vk] accepts exactly the valid proofs produced for [vk]: an IDEAL proof system, which
   satisfies the knowledge-soundness premise of C11 by construction (RecursionProofs.ideal_sound). *)
Definition ikey := list Z.
Definition iproof := (list Z * bool)%type.
Definition iverify (vk : ikey) (_ : list Z) (pf : iproof) : bool := list_eqb vk (fst pf) && snd pf.

(* outer circuit accepts the witness: every child verifies under the baked key and the wrapper accepts the
   children's public inputs ([wrapper_ok]: the verdict of the wrapper program on those public inputs, which the
   harness obtains from the wrapper circuit instantiated without the recursive verifier) *)
Definition rec_accepts (baked : ikey) (children : list (@child iproof)) (wrapper_ok : bool) : bool :=
  recursive_verifiers_b ikey iproof iverify baked children && wrapper_ok.
