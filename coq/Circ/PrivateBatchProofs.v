(* Proofs about the private-batch wrapper circuit (model: PrivateBatch.v; specification: Spec/LeanPort.v).

   Main theorem: for well-formed child statements (leaf_wf: 21 canonical felts, output amounts below 2^32)
   and a hash oracle with 4 canonical output felts, the constraint system of
   build_private_batch_constraints is satisfiable iff [priv_compat leaves], and then its only reachable
   public output is [priv_output H leaves us] - for an arbitrary (adversarial) witness. *)
From Coq Require Import ZArith Lia List Bool Permutation.
From V.Base Require Import Common.
From V.Generated Require Import Constants.
From V.Circ Require Import Field Core Prims Gadgets GadgetsProofs SortNet Sorting PrivateBatch.
From V.Spec Require Import LeanPort.
From V.Spec Require Export LeanPortFacts.
Import ListNotations.
Open Scope Z_scope.

Lemma b2z_inj_1 b : b2z b = 1 <-> b = true. Proof. destruct b; cbn [b2z]; split; intros; try reflexivity; discriminate. Qed.

Lemma map2z_select_b (f : bool) x y : length x = length y -> Forall canon x -> Forall canon y ->
  map2z (g_select (b2z f)) x y = if f then x else y.
Proof. intros L Fx Fy. exact (select_halves_b f x y L Fx Fy). Qed.
Lemma map_select0 (f : bool) e : good4 e ->
  map (fun x => g_select (b2z f) 0 x) e = if f then zero4 else e.
Proof.
  intros [L F]. rewrite (map_ext_Forall _ (fun x => if f then 0 else x))
    by (eapply Forall_impl; [|exact F]; intros x; apply g_select_b0).
  destruct f; [|apply map_id]. destruct e as [|? [|? [|? [|? [|? ?]]]]]; try discriminate L. reflexivity.
Qed.

(* the specification in the shape in which the circuit computes it *)
Definition dflag (q : list Z) : Z := b2z (is_dummy_pb q).

Definition cons_ok (asset_ref : Z) (block_ref : list Z) (fee_ref : Z) (q : list Z) : bool :=
  (lf_asset q =? asset_ref) && (is_dummy_pb q || (list_eqb (lf_bh q) block_ref && (lf_fee q =? fee_ref))).

Lemma masked_slots_spec leaves : Forall leaf_fields leaves ->
  masked_slots leaves (map dflag leaves) = maskedChildPairs leaves.
Proof.
  induction 1 as [|q lr Wq F IH]; cbn [map masked_slots maskedChildPairs]; [reflexivity|].
  rewrite IH. unfold dflag. rewrite !map_select0 by apply Wq.
  rewrite !g_select_b0 by (apply canon_u32, Wq).
  destruct (is_dummy_pb q); reflexivity.
Qed.

Lemma scan_ref_spec leaves : Forall leaf_fields leaves ->
  forall (found : bool) bref bn fee, good4 bref -> canon bn -> canon fee ->
  scan_ref leaves (map dflag leaves) (b2z found) bref bn fee =
  if found then (bref, bn, fee)
  else match find is_real_pb leaves with Some q => (lf_bh q, lf_bn q, lf_fee q) | None => (bref, bn, fee) end.
Proof.
  induction 1 as [|q lr Wq F IH]; intros found bref bn fee Gb Cbn Cfee; cbn [map scan_ref find].
  - destruct found; reflexivity.
  - change (dflag q) with (b2z (is_dummy_pb q)). cbv zeta. unfold is_real_pb at 1.
    destruct Gb as [Lb Fb]. destruct (lw_bh q Wq) as [Lq Fq].
    rewrite !g_not_b, !g_and_b, !g_or_b.
    rewrite map2z_select_b by (try assumption; congruence).
    rewrite !g_select_b by (try assumption; apply Wq).
    rewrite IH by (destruct (negb (is_dummy_pb q) && negb found); first [split; assumption|apply Wq|assumption]).
    destruct found, (is_dummy_pb q); reflexivity.
Qed.

Lemma scan_ref_header leaves : Forall leaf_fields leaves ->
  scan_ref leaves (map dflag leaves) 0 zero4 0 0 = (ref_bh leaves, ref_bn leaves, ref_fee leaves).
Proof.
  intros F. etransitivity; [exact (scan_ref_spec leaves F false zero4 0 0 good4_zero4 canon_0 canon_0)|].
  unfold ref_bh, ref_bn, ref_fee, ref_header. destruct (find is_real_pb leaves); reflexivity.
Qed.

Section PB.
  Variable H : list Z -> list Z.
  Hypothesis Hwf : forall l, length (H l) = 4%nat /\ Forall canon (H l).
  Notation rel := (rel H).
  Notation hon := (hon H).
  Notation det := (det H).
  Notation gdet := (gdet H).

  Lemma det_bde a c : good4 a -> good4 c -> det (bytes_digest_eq a c) (b2z (list_eqb a c)).
  Proof. intros [La Fa] [Lc Fc]. apply det_bytes_digest_eq; assumption. Qed.
  Lemma det_cmapM {A B} (f : A -> Circ B) (g : A -> B) l :
    Forall (fun x => det (f x) (g x)) l -> det (cmapM f l) (map g l).
  Proof.
    induction 1 as [|x l Dx F IH]; cbn [cmapM map]; [apply det_ret_eq; reflexivity|].
    eapply det_bind; [exact Dx|]. eapply det_bind; [exact IH|]. apply det_ret_eq; reflexivity.
  Qed.

  Lemma det_dummy_flags leaves : Forall leaf_fields leaves -> det (dummy_flags leaves) (map dflag leaves).
  Proof.
    intros F. unfold dummy_flags. apply det_cmapM. eapply Forall_impl; [|exact F].
    intros q Wq. apply det_bde; [apply Wq|apply good4_zero4].
  Qed.

  Lemma gdet_consistency leaves : Forall leaf_fields leaves -> forall a b f, good4 b -> canon f ->
    gdet (consistency leaves (map dflag leaves) a b f) (forallb (cons_ok a b f) leaves) tt.
  Proof.
    induction 1 as [|q lr Wq F IH]; intros a b f Gb Cf; cbn [map consistency forallb]; [apply gdet_ret|].
    eapply gdet_conv; [| |reflexivity].
    - eapply gdet_dbind; [apply det_bde; [apply Wq|exact Gb]|]. cbv beta.
      apply gdet_assert. apply gdet_assert.
      eapply gdet_dbind; [apply det_is_equal; [apply Wq|exact Cf]|]. cbv beta.
      apply gdet_assert. apply IH; assumption.
    - unfold dflag, cons_ok. rewrite !g_or_b, !b2z_eqb_1.
      destruct (is_dummy_pb q), (list_eqb (lf_bh q) b), (lf_asset q =? a), (lf_fee q =? f); reflexivity.
  Qed.

  (* the circuit compares every EARLIER exit with the slot's exit, in this order *)
  Lemma det_dup_scan earlier e : good4 e -> Forall good4 earlier -> forall acc : bool,
    det (dup_scan earlier e (b2z acc)) (b2z (acc || dmem e earlier)).
  Proof.
    intros Ge. unfold dmem. induction 1 as [|x r Gx F IH]; intros acc; cbn [dup_scan existsb].
    - rewrite orb_false_r. apply det_ret_eq; reflexivity.
    - eapply det_bind; [apply det_bde; assumption|]. cbv beta.
      rewrite g_or_b, (list_eqb_sym x e), orb_assoc. apply IH.
  Qed.

  Lemma det_sum_scan slots e : good4 e -> Forall pair_ok slots -> forall acc, 0 <= acc ->
    acc + zlen slots * two32 < p -> det (sum_scan slots e acc) (acc + matchSum e slots).
  Proof.
    intros Ge. induction 1 as [|[k a] r [Gk Ba] F IH]; intros acc A0 Bd; cbn [sum_scan matchSum].
    - rewrite Z.add_0_r. apply det_ret_eq; reflexivity.
    - cbn [fst snd] in Gk, Ba. rewrite zlen_cons in Bd. pose proof (zlen_nonneg r) as Zr.
      eapply det_bind; [apply det_bde; assumption|]. cbv beta.
      rewrite g_select_b by (try apply canon_0; apply canon_u32, Ba).
      assert (Bx : 0 <= (if list_eqb k e then a else 0) < two32) by (destruct (list_eqb k e); lia).
      rewrite fadd_small, Z.add_assoc by nia. apply IH; nia.
  Qed.

  Lemma gdet_slot_out all earlier e : good4 e -> Forall good4 earlier -> Forall pair_ok all ->
    zlen all * two32 < p ->
    gdet (slot_out all earlier e) (fst (slot_spec all earlier e) <? two32) (flat_slot (slot_spec all earlier e)).
  Proof.
    intros Ge Fe Fa Bd. unfold slot_out.
    pose proof (matchSum_bound e all Fa) as MB.
    assert (Cm : canon (matchSum e all)) by (unfold canon; lia).
    eapply gdet_conv.
    - eapply gdet_dbind; [exact (det_dup_scan earlier e Ge Fe false)|]. cbv beta.
      eapply gdet_dbind; [apply (det_sum_scan all e Ge Fa 0); lia|]. cbv beta.
      eapply gdet_bind_det; [apply (gdet_range_check H _ 32); [apply canon_g_select|lia]|]. apply det_ret_eq; reflexivity.
    - cbn [orb]. rewrite pow2_32, Z.add_0_l, g_select_b0 by exact Cm.
      unfold slot_spec. destruct (dmem e earlier); reflexivity.
    - cbn [orb]. rewrite Z.add_0_l, g_select_b0, map_select0 by assumption.
      unfold slot_spec, flat_slot. destruct (dmem e earlier); reflexivity.
  Qed.

  Lemma gdet_slots_loop all : Forall pair_ok all -> zlen all * two32 < p ->
    forall rest earlier, Forall pair_ok rest -> Forall good4 earlier ->
    gdet (slots_loop all earlier rest)
         (forallb (fun s => fst s <? two32) (slots_spec all earlier rest))
         (map flat_slot (slots_spec all earlier rest)).
  Proof.
    intros Fa Bd. induction rest as [|[e a] r IH]; intros earlier Fr Fe; cbn [slots_loop slots_spec forallb map].
    - apply gdet_ret.
    - inversion Fr as [|? ? [Ge _] Fr']; subst. cbn [fst] in Ge.
      eapply gdet_bind; [apply gdet_slot_out; assumption|].
      eapply gdet_bind_det; [apply IH; [exact Fr'|]|apply det_ret_eq; reflexivity].
      apply Forall_app. split; [exact Fe|constructor; [exact Ge|constructor]].
  Qed.

  Lemma gdet_uniq_inner (ri : bool) ni : good4 ni -> forall rest, Forall leaf_fields rest ->
    gdet (uniq_inner (b2z ri) ni (combine (map dflag rest) (map lf_null rest)))
         (negb (ri && dmem ni (map lf_null (filter is_real_pb rest)))) tt.
  Proof.
    intros Gi. induction 1 as [|q r Wq F IH]; cbn [map combine uniq_inner filter].
    - rewrite andb_false_r. apply gdet_ret.
    - eapply gdet_conv; [| |reflexivity].
      + eapply gdet_dbind; [apply det_bde; [exact Gi|apply Wq]|]. cbv beta.
        apply gdet_assert. exact IH.
      + unfold dflag, is_real_pb. rewrite g_not_b, !g_and_b, b2z_eqb_0.
        destruct ri, (is_dummy_pb q); cbn [negb andb map]; try reflexivity.
        symmetry. apply negb_orb.
  Qed.

  Lemma gdet_uniq leaves : Forall leaf_fields leaves ->
    gdet (uniq (combine (map dflag leaves) (map lf_null leaves)))
         (distinct_digests (map lf_null (filter is_real_pb leaves))) tt.
  Proof.
    induction 1 as [|q r Wq F IH]; cbn [map combine uniq filter]; [apply gdet_ret|].
    eapply gdet_conv; [| |reflexivity].
    - eapply gdet_bind; [|exact IH].
      unfold dflag at 1. rewrite g_not_b. fold (is_real_pb q). apply gdet_uniq_inner; [apply Wq|exact F].
    - destruct (is_real_pb q); reflexivity.
  Qed.

  Lemma det_select_nullifiers leaves : Forall leaf_fields leaves -> forall us,
    det (select_nullifiers (combine3 (map dflag leaves) (map lf_null leaves) us))
        (selected_nullifiers H leaves us).
  Proof.
    unfold combine3.
    induction 1 as [|q r Wq F IH]; intros us; cbn [map combine select_nullifiers selected_nullifiers].
    - apply det_ret_eq; reflexivity.
    - destruct us as [|u ur]; cbn [combine select_nullifiers]; [apply det_ret_eq; reflexivity|].
      apply det_hash. apply det_hash.
      eapply det_bind; [apply IH|].
      destruct (Hwf (H u)) as [Lh Fh]. destruct (lw_null q Wq) as [Ln Fn].
      unfold dflag, dummyNull. rewrite map2z_select_b by (try assumption; congruence).
      apply det_ret_eq; reflexivity.
  Qed.

  Section Main.
    Variables (leaves us : list (list Z)).
    Hypothesis Hn : (1 <= length leaves <= 64)%nat.
    Hypothesis Hleaves : Forall leaf_wf leaves.
    Hypothesis Hus : length us = length leaves.

    Theorem gdet_private_batch :
      gdet (private_batch leaves us) (priv_compat leaves) (priv_output H leaves us).
    Proof.
      pose proof (leaf_wf_fields_all leaves Hleaves) as F.
      destruct (ref_good leaves F) as (Cfee & Gbh & Cbn).
      pose proof (maskedChildPairs_ok leaves F) as Fm.
      assert (Bm : zlen (maskedChildPairs leaves) * two32 < p).
      { unfold zlen. rewrite maskedChildPairs_length. unfold two32, p. lia. }
      pose proof (selected_nullifiers_good H leaves us Hwf F) as Gs.
      pose proof (selected_nullifiers_length H leaves us Hus) as Ls.
      eapply gdet_conv.
      - unfold private_batch. cbv zeta.
        eapply gdet_dbind; [apply det_dummy_flags, F|]. cbv beta.
        rewrite (scan_ref_header leaves F), (masked_slots_spec leaves F). cbv iota beta.
        eapply gdet_bind; [apply gdet_consistency; assumption|].
        eapply gdet_bind; [apply gdet_slots_loop; [exact Fm|exact Bm|exact Fm|constructor]|].
        eapply gdet_bind_det; [apply gdet_uniq, F|].
        eapply det_bind; [apply det_select_nullifiers, F|].
        eapply det_bind; [apply (det_sort_digests4 H 4), Gs|].
        apply det_ret_eq; reflexivity.
      - (* the flag built up stage by stage is [priv_compat], its four conjuncts in the circuit's order *)
        rewrite priv_compat_unfold, groupExits_slots_spec, <- forallb_andb, <- andb_assoc.
        f_equal. apply andb_comm.
      - rewrite priv_output_split, <- flat_map_concat_map, <- groupExits_slots_spec, (Z.mul_comm (zlen leaves)).
        fold (priv_exits leaves) (priv_nulls H leaves us). change PR_LEAF_PI_LEN with 21.
        unfold priv_header, zlen. rewrite <- !app_assoc. do 7 f_equal.
        destruct Gbh as [Lb _].
        rewrite !app_length, Lb, priv_exits_length, (priv_nulls_length H Hwf) by assumption. cbn [length]. lia.
    Qed.

    Theorem private_batch_spec post :
      rel (private_batch leaves us) post <-> (priv_compat leaves = true /\ post (priv_output H leaves us)).
    Proof. apply gdet_private_batch. Qed.

    Theorem refines_private_batch : refines H (private_batch leaves us).
    Proof. eapply gdet_refines, gdet_private_batch. Qed.
  End Main.
End PB.

(* conservation: the amounts of the keys not yet [seen] *)
Fixpoint sumUnseen (seen : list (list Z)) (xs : list (list Z * Z)) : Z :=
  match xs with
  | [] => 0
  | (k, a) :: r => (if dmem k seen then 0 else a) + sumUnseen seen r
  end.

(* marking [k] as seen takes exactly [k]'s amounts out of the sum, unless it was marked already *)
Lemma sumUnseen_cons k seen r :
  sumUnseen seen r = (if dmem k seen then 0 else matchSum k r) + sumUnseen (k :: seen) r.
Proof.
  induction r as [|[k' a'] r IH]; cbn [sumUnseen matchSum]; [destruct (dmem k seen); reflexivity|].
  rewrite IH. change (dmem k' (k :: seen)) with (list_eqb k' k || dmem k' seen).
  destruct (list_eqb k' k) eqn:E; cbn [orb].
  - apply list_eqb_spec in E. subst k'. destruct (dmem k seen); lia.
  - destruct (dmem k seen), (dmem k' seen); lia.
Qed.
(* port of Lean's groupAux_conserves *)
Lemma groupAux_conserves xs : forall seen, slotsTotal (groupAux seen xs) = sumUnseen seen xs.
Proof.
  induction xs as [|[k a] r IH]; intros seen; cbn [groupAux sumUnseen]; [reflexivity|].
  rewrite (sumUnseen_cons k seen r). destruct (dmem k seen); cbn [slotsTotal]; rewrite IH; lia.
Qed.
Lemma sumUnseen_masked leaves : sumUnseen [] (maskedChildPairs leaves) = inputExitTotal leaves.
Proof.
  induction leaves as [|q r IH]; cbn [maskedChildPairs inputExitTotal]; [reflexivity|].
  destruct (is_dummy_pb q); cbn [sumUnseen dmem existsb]; rewrite IH; lia.
Qed.
Theorem conservation leaves : slotsTotal (groupExits (maskedChildPairs leaves)) = inputExitTotal leaves.
Proof. unfold groupExits. rewrite groupAux_conserves. apply sumUnseen_masked. Qed.

(* total sent to account [k] by the real children *)
Fixpoint accountTotal (k : list Z) (leaves : list (list Z)) : Z :=
  match leaves with
  | [] => 0
  | q :: r =>
      (if is_dummy_pb q then 0
       else (if list_eqb (lf_exit1 q) k then lf_out1 q else 0) + (if list_eqb (lf_exit2 q) k then lf_out2 q else 0))
      + accountTotal k r
  end.
Lemma matchSum_masked k leaves : matchSum k (maskedChildPairs leaves) = accountTotal k leaves.
Proof.
  induction leaves as [|q r IH]; cbn [maskedChildPairs accountTotal]; [reflexivity|].
  destruct (is_dummy_pb q); cbn [matchSum]; rewrite IH; [destruct (list_eqb zero4 k)|]; lia.
Qed.

Lemma maskedChildPairs_app l1 l2 : maskedChildPairs (l1 ++ l2) = maskedChildPairs l1 ++ maskedChildPairs l2.
Proof. rewrite !maskedChildPairs_flat_map. apply flat_map_app. Qed.

Definition key_at (xs : list (list Z * Z)) (k : nat) : list Z := fst (nth k xs ([], 0)).

Lemma key_before (xs : list (digest * Z)) k e :
  In e (map fst (firstn k xs)) <-> exists j, (j < k)%nat /\ (j < length xs)%nat /\ key_at xs j = e.
Proof.
  unfold key_at. rewrite in_map_iff. setoid_rewrite (In_firstn ([], 0)). split.
  - intros (x & <- & j & Lk & Ll & <-). exists j. repeat split; assumption.
  - intros (j & Lk & Ll & <-). exists (nth j xs ([], 0)). split; [reflexivity|]. exists j. repeat split; assumption.
Qed.

(* the first slot of an account carries the account's total, every later one is the all-zero slot *)
Lemma groupExits_first (xs : list (digest * Z)) k d : (k < length xs)%nat ->
  (forall j, (j < k)%nat -> key_at xs j <> key_at xs k) ->
  nth k (groupExits xs) d = (matchSum (key_at xs k) xs, key_at xs k).
Proof.
  intros L N. rewrite groupExits_nth by exact L. fold (key_at xs k). unfold slot_spec.
  destruct (dmem _ _) eqn:S; [exfalso|reflexivity].
  apply dmem_In, key_before in S. destruct S as (j & Lk & _ & E). exact (N j Lk E).
Qed.
Lemma groupExits_later (xs : list (digest * Z)) k d : (k < length xs)%nat ->
  (exists j, (j < k)%nat /\ key_at xs j = key_at xs k) ->
  nth k (groupExits xs) d = (0, zero4).
Proof.
  intros L (j & Lk & E). rewrite groupExits_nth by exact L. fold (key_at xs k). unfold slot_spec.
  destruct (dmem _ _) eqn:S; [reflexivity|exfalso].
  apply dmem_false in S. apply S, key_before. exists j. repeat split; [exact Lk|lia|exact E].
Qed.

Fixpoint read_slots (n : nat) (region : list Z) : list (Z * list Z) :=
  match n with
  | O => []
  | S m => (nth 0 region 0, firstn 4 (skipn 1 region)) :: read_slots m (skipn 5 region)
  end.
(* the 2N exit slots (sum, account) read back from the public output *)
Definition out_exit_slots (n : nat) (out : list Z) : list (Z * list Z) := read_slots (2 * n) (skipn 8 out).

Lemma read_slots_flat (G : list (Z * list Z)) tail : Forall slot_ok G ->
  read_slots (length G) (flat_map flat_slot G ++ tail) = G.
Proof.
  induction 1 as [|[a k] G [_ [Lk _]] F IH]; cbn [length flat_map read_slots]; [reflexivity|].
  cbn [snd] in Lk. change (flat_slot (a, k)) with (a :: k). rewrite <- app_assoc, <- app_comm_cons.
  cbn [nth]. change (skipn 1 (a :: ?X)) with X. change (skipn 5 (a :: ?X)) with (skipn 4 X).
  rewrite (firstn_exact k _ 4 Lk), (skipn_exact k _ 4 Lk), IH. reflexivity.
Qed.

Lemma priv_output_exit_slots H leaves us : Forall leaf_fields leaves ->
  out_exit_slots (length leaves) (priv_output H leaves us) = groupExits (maskedChildPairs leaves).
Proof.
  intros F. unfold out_exit_slots. rewrite priv_output_split, (skipn_exact _ _ 8 (priv_header_length leaves F)).
  replace (2 * length leaves)%nat with (length (groupExits (maskedChildPairs leaves)))
    by (rewrite groupExits_length; apply maskedChildPairs_length).
  apply read_slots_flat, groupExits_slots_ok, maskedChildPairs_ok, F.
Qed.

(* for every satisfying witness, the exit slots of the registered output are the grouped exits *)
Lemma private_batch_exit_slots H (Hwf : forall l, length (H l) = 4%nat /\ Forall canon (H l)) leaves us out :
  (1 <= length leaves <= 64)%nat -> Forall leaf_wf leaves -> length us = length leaves ->
  rel H (private_batch leaves us) (fun o => o = out) ->
  out_exit_slots (length leaves) out = groupExits (maskedChildPairs leaves).
Proof.
  intros Hn W Lu R. apply (gdet_output H _ _ _ _ (gdet_private_batch H Hwf leaves us Hn W Lu)) in R.
  cbv beta in R. subst out. apply priv_output_exit_slots, leaf_wf_fields_all, W.
Qed.

Definition is_zero_slot (s : Z * list Z) : bool := (fst s =? 0) && list_eqb (snd s) zero4.
Definition nonzero_slot (s : Z * list Z) : bool := negb (is_zero_slot s).

Definition no_payment_to_zero_account (leaves : list (list Z)) : Prop :=
  forall q, In q leaves -> is_real_pb q = true ->
    (lf_exit1 q = zero4 -> lf_out1 q = 0) /\ (lf_exit2 q = zero4 -> lf_out2 q = 0).

Lemma accountTotal_zero4 leaves : no_payment_to_zero_account leaves -> accountTotal zero4 leaves = 0.
Proof.
  induction leaves as [|q r IH]; intros N; cbn [accountTotal]; [reflexivity|].
  rewrite IH by (intros q' I; apply N; right; exact I).
  destruct (is_dummy_pb q) eqn:D; [reflexivity|].
  destruct (N q (or_introl eq_refl) (is_real_pb_of_dummy q false D)) as [N1 N2].
  destruct (list_eqb (lf_exit1 q) zero4) eqn:E1; destruct (list_eqb (lf_exit2 q) zero4) eqn:E2;
    try (apply list_eqb_spec in E1; rewrite (N1 E1)); try (apply list_eqb_spec in E2; rewrite (N2 E2)); reflexivity.
Qed.

Theorem dummy_slots_zero leaves i j d : (i < length leaves)%nat -> is_dummy_pb (nth i leaves []) = true ->
  no_payment_to_zero_account leaves -> (j = 2 * i \/ j = 2 * i + 1)%nat ->
  nth j (groupExits (maskedChildPairs leaves)) d = (0, zero4).
Proof.
  intros L D N J.
  assert (K : fst (nth j (maskedChildPairs leaves) ([], 0)) = zero4).
  { destruct (masked_nth leaves i ([], 0) L) as [E1 E2]. unfold masked2 in E1, E2. rewrite D in E1, E2.
    destruct J as [-> | ->]; [rewrite E1|rewrite E2]; reflexivity. }
  rewrite groupExits_nth, K by (rewrite maskedChildPairs_length; lia). unfold slot_spec.
  destruct (dmem _ _); [reflexivity|].
  rewrite matchSum_masked, accountTotal_zero4 by exact N. reflexivity.
Qed.

Definition bn_determined (leaves : list (list Z)) : Prop :=
  forall q q', In q leaves -> In q' leaves -> is_real_pb q = true -> is_real_pb q' = true ->
               lf_bh q = lf_bh q' -> lf_bn q = lf_bn q'.

(* fee and block hash of the reference are those of any real child; the block number is that of the FIRST
   real child, so it is stable only if equal hashes come with equal numbers *)
Lemma perm_ref_header l l' : Permutation l l' -> one_header l ->
  ref_fee l = ref_fee l' /\ ref_bh l = ref_bh l' /\ (bn_determined l -> ref_bn l = ref_bn l').
Proof.
  intros P (bh & fee & B).
  destruct (ref_cases l) as [(q & I & R & -> & -> & ->)|(N & -> & -> & ->)];
    destruct (ref_cases l') as [(q' & I' & R' & -> & -> & ->)|(N' & -> & -> & ->)].
  - apply (Permutation_in _ (Permutation_sym P)) in I'.
    destruct (B q I R) as [Eb Ef], (B q' I' R') as [Eb' Ef'].
    split; [congruence|]. split; [congruence|]. intros D. apply (D q q' I I' R R'). congruence.
  - apply (Permutation_in _ P) in I. rewrite Forall_forall in N'. rewrite (N' q I) in R. discriminate.
  - apply (Permutation_in _ (Permutation_sym P)) in I'. rewrite Forall_forall in N. rewrite (N q' I') in R'. discriminate.
  - repeat split.
Qed.

(* the first 7 header felts of an accepted batch do not depend on the order of the slots *)
Lemma perm_output_header H l us l' us' : Forall leaf_wf l -> Permutation l l' -> priv_compat l = true ->
  firstn 7 (priv_output H l us) = firstn 7 (priv_output H l' us') /\
  (bn_determined l -> firstn 8 (priv_output H l us) = firstn 8 (priv_output H l' us')).
Proof.
  intros W P C. pose proof (leaf_wf_fields_all l W) as F. pose proof (Permutation_Forall P F) as F'.
  change 7%nat with (Nat.min 7 8). rewrite <- !firstn_firstn, !priv_output_header by assumption.
  apply priv_compat_iff in C. destruct C as (A & B & _).
  destruct (perm_ref_header l l' P B) as (Ef & Eb & En). destruct (ref_good l F) as (_ & [Lb _] & _).
  unfold priv_header, zlen. rewrite <- Ef, <- Eb, <- (perm_asset0 l l' P A), <- (Permutation_length P). split.
  - rewrite !app_assoc, !(firstn_exact _ _ 7) by (rewrite app_length, Lb; reflexivity). reflexivity.
  - intros D. rewrite (En D). reflexivity.
Qed.

Lemma perm_output_exit_slots H l us l' us' : Forall leaf_wf l -> Permutation l l' ->
  Permutation (filter nonzero_slot (out_exit_slots (length l) (priv_output H l us)))
              (filter nonzero_slot (out_exit_slots (length l') (priv_output H l' us'))).
Proof.
  intros W P. pose proof (leaf_wf_fields_all l W) as F.
  rewrite (priv_output_exit_slots H l us F), (priv_output_exit_slots H l' us' (Permutation_Forall P F)).
  apply perm_group_slots; [reflexivity|apply perm_masked, P].
Qed.

Lemma perm_output_nullifiers H (Hwf : forall x, good4 (H x)) l us l' us' :
  Forall leaf_wf l -> length us = length l -> length us' = length l' ->
  Permutation (combine l us) (combine l' us') ->
  firstn (4 * length l) (skipn (8 + 10 * length l) (priv_output H l us)) =
  firstn (4 * length l') (skipn (8 + 10 * length l') (priv_output H l' us')).
Proof.
  intros W Lu Lu' P. pose proof (leaf_wf_fields_all l W) as F.
  pose proof (Permutation_Forall (perm_combine_leaves l us l' us' Lu Lu' P) F) as F'.
  rewrite !priv_output_null_region by assumption. apply perm_nullifiers, P.
Qed.

(* of a dummy slot only the block-hash sentinel and the asset id matter *)
Definition same_up_to_dummy_fields (q q' : list Z) : Prop :=
  q = q' \/ (is_dummy_pb q = true /\ is_dummy_pb q' = true /\ lf_asset q = lf_asset q').

Notation sdf := (Forall2 same_up_to_dummy_fields).

Lemma sdf_length l l' : sdf l l' -> length l = length l'.
Proof. induction 1 as [|q q' r r' _ _ IH]; cbn [length]; [reflexivity|rewrite IH; reflexivity]. Qed.
Lemma sdf_asset0 l l' : sdf l l' -> lf_asset (nth 0 l []) = lf_asset (nth 0 l' []).
Proof. intros R. destruct R as [|q q' r r' [->|(_ & _ & E)] _]; cbn [nth]; congruence. Qed.
Lemma sdf_find l l' : sdf l l' -> find is_real_pb l = find is_real_pb l'.
Proof.
  induction 1 as [|q q' r r' [->|(D & D' & _)] _ IH]; cbn [find]; [reflexivity|rewrite IH; reflexivity|].
  unfold is_real_pb. rewrite D, D'. cbn [negb]. exact IH.
Qed.
Lemma sdf_masked l l' : sdf l l' -> maskedChildPairs l = maskedChildPairs l'.
Proof.
  induction 1 as [|q q' r r' [->|(D & D' & _)] _ IH]; cbn [maskedChildPairs]; [reflexivity|rewrite IH; reflexivity|].
  rewrite D, D', IH. reflexivity.
Qed.
Lemma sdf_selected H l l' : sdf l l' -> forall us, selected_nullifiers H l us = selected_nullifiers H l' us.
Proof.
  induction 1 as [|q q' r r' [->|(D & D' & _)] _ IH]; intros [|u ur]; cbn [selected_nullifiers]; try reflexivity.
  - rewrite IH. reflexivity.
  - rewrite D, D', IH. reflexivity.
Qed.
Lemma sdf_assets a l l' : sdf l l' ->
  forallb (fun q => lf_asset q =? a) l = forallb (fun q => lf_asset q =? a) l'.
Proof.
  induction 1 as [|q q' r r' [->|(_ & _ & E)] _ IH]; cbn [forallb]; [reflexivity|rewrite IH; reflexivity|].
  rewrite E, IH. reflexivity.
Qed.
Lemma sdf_refs bh fee l l' : sdf l l' ->
  forallb (fun q => is_dummy_pb q || (list_eqb (lf_bh q) bh && (lf_fee q =? fee))) l =
  forallb (fun q => is_dummy_pb q || (list_eqb (lf_bh q) bh && (lf_fee q =? fee))) l'.
Proof.
  induction 1 as [|q q' r r' [->|(D & D' & _)] _ IH]; cbn [forallb]; [reflexivity|rewrite IH; reflexivity|].
  rewrite D, D', IH. reflexivity.
Qed.
Lemma sdf_real l l' : sdf l l' -> filter is_real_pb l = filter is_real_pb l'.
Proof.
  induction 1 as [|q q' r r' [->|(D & D' & _)] _ IH]; cbn [filter]; [reflexivity|rewrite IH; reflexivity|].
  rewrite (is_real_pb_of_dummy q true D), (is_real_pb_of_dummy q' true D'). exact IH.
Qed.

Theorem dummy_noninterference_output H l l' us : sdf l l' -> priv_output H l us = priv_output H l' us.
Proof.
  intros R. unfold priv_output, ref_header.
  rewrite (sdf_find l l' R), (sdf_masked l l' R), (sdf_selected H l l' R), (sdf_asset0 l l' R).
  unfold zlen. rewrite (sdf_length l l' R). reflexivity.
Qed.
Theorem dummy_noninterference_compat l l' : sdf l l' -> priv_compat l = priv_compat l'.
Proof.
  intros R. rewrite !priv_compat_unfold. unfold ref_bh, ref_fee, ref_header.
  rewrite (sdf_find l l' R), (sdf_masked l l' R), (sdf_real l l' R), (sdf_asset0 l l' R).
  rewrite (sdf_assets _ l l' R), (sdf_refs _ _ l l' R). reflexivity.
Qed.

Lemma sdf_replace l1 d d' l2 : is_dummy_pb d = true -> is_dummy_pb d' = true -> lf_asset d = lf_asset d' ->
  sdf (l1 ++ d :: l2) (l1 ++ d' :: l2).
Proof.
  intros D D' E. assert (R : forall l, sdf l l) by (induction l; constructor; [left; reflexivity|assumption]).
  apply Forall2_app; [apply R|]. constructor; [right; tauto|apply R].
Qed.

(* Without the same-asset premise: under acceptance of both batches and at least one real slot the dummies'
   asset ids are forced to the real slots' asset id; with no real slot at all the asset id shown in the
   header IS a dummy's. *)
Definition same_up_to_dummy (q q' : list Z) : Prop :=
  q = q' \/ (is_dummy_pb q = true /\ is_dummy_pb q' = true).

Lemma sud_real_in l l' r : Forall2 same_up_to_dummy l l' -> In r l -> is_real_pb r = true -> In r l'.
Proof.
  induction 1 as [|q q' t t' S _ IH]; intros I R; [destruct I|].
  destruct I as [->|I]; [|right; apply IH; assumption].
  destruct S as [->|[D _]]; [left; reflexivity|]. rewrite (is_real_pb_of_dummy r true D) in R. discriminate.
Qed.
Lemma sud_sdf a l l' : Forall2 same_up_to_dummy l l' ->
  Forall (fun q => lf_asset q = a) l -> Forall (fun q => lf_asset q = a) l' -> sdf l l'.
Proof.
  induction 1 as [|q q' t t' S _ IH]; intros A A'; [constructor|].
  inversion A as [|? ? Aq At]; subst. inversion A' as [|? ? Aq' At']; subst.
  constructor; [|apply IH; assumption].
  destruct S as [->|[D D']]; [left; reflexivity|right]. split; [exact D|]. split; [exact D'|congruence].
Qed.

Theorem dummy_noninterference_under_compat H l l' us : Forall2 same_up_to_dummy l l' ->
  priv_compat l = true -> priv_compat l' = true -> (exists r, In r l /\ is_real_pb r = true) ->
  priv_output H l us = priv_output H l' us.
Proof.
  intros S C C' (r & I & R). apply dummy_noninterference_output.
  apply priv_compat_assets in C. apply priv_compat_assets in C'.
  pose proof (sud_real_in l l' r S I R) as I'.
  assert (E : lf_asset (nth 0 l []) = lf_asset (nth 0 l' [])).
  { rewrite Forall_forall in C, C'. rewrite <- (C r I), <- (C' r I'). reflexivity. }
  apply (sud_sdf (lf_asset (nth 0 l [])) l l' S C). rewrite E. exact C'.
Qed.

Definition leaf_wfb (q : list Z) : bool :=
  (length q =? 21)%nat && forallb is_canon q && (lf_out1 q <? two32) && (lf_out2 q <? two32).
Lemma leaf_wfb_ok q : leaf_wfb q = true -> leaf_wf q.
Proof.
  unfold leaf_wfb, leaf_wf. rewrite !andb_true_iff, Nat.eqb_eq, !Z.ltb_lt.
  rewrite (forallb_Forall_iff is_canon canon) by (intros x _; apply is_canon_spec). tauto.
Qed.
Lemma leaves_wfb_ok l : forallb leaf_wfb l = true -> Forall leaf_wf l.
Proof. rewrite forallb_forall, Forall_forall. intros A q I. apply leaf_wfb_ok, A, I. Qed.

Definition H0 (l : list Z) : list Z := [1 + (fold_left Z.add l 0) mod 1000; 2; 3; 4].
Lemma H0_wf : forall l, length (H0 l) = 4%nat /\ Forall canon (H0 l).
Proof.
  intros l. split; [reflexivity|]. unfold H0.
  pose proof (Z.mod_pos_bound (fold_left Z.add l 0) 1000 ltac:(lia)).
  repeat (constructor; [unfold canon, p; lia|]). constructor.
Qed.

(*                              asset out1 out2 fee  nullifier      exit 1          exit 2          block hash      number *)
Definition ex_real1 : list Z := [0; 10; 20; 5;  11; 12; 13; 14;  21; 22; 23; 24;  31; 32; 33; 34;  41; 42; 43; 44;  7].
Definition ex_dummy : list Z := [0; 99; 98; 3;  1; 1; 1; 1;      9; 9; 9; 9;      8; 8; 8; 8;      0; 0; 0; 0;      0].
Definition ex_real2 : list Z := [0; 30; 40; 5;  15; 16; 17; 18;  21; 22; 23; 24;  51; 52; 53; 54;  41; 42; 43; 44;  7].
(* same block hash as ex_real1, another block number *)
Definition ex_real3 : list Z := [0; 30; 40; 5;  15; 16; 17; 18;  21; 22; 23; 24;  51; 52; 53; 54;  41; 42; 43; 44;  8].
(* pays 5 to the all-zero account *)
Definition ex_real4 : list Z := [0; 5; 6; 5;    15; 16; 17; 18;  0; 0; 0; 0;      51; 52; 53; 54;  41; 42; 43; 44;  7].
Definition ex_leaves : list (list Z) := [ex_real1; ex_dummy; ex_real2].
Definition ex_us : list (list Z) := [[1; 1; 1; 1]; [2; 2; 2; 2]; [3; 3; 3; 3]].

Lemma ex_leaves_wf : Forall leaf_wf ex_leaves.
Proof. apply leaves_wfb_ok. vm_compute. reflexivity. Qed.
Lemma ex_compat : priv_compat ex_leaves = true.
Proof. vm_compute. reflexivity. Qed.
Lemma ex_out :
  priv_output H0 ex_leaves ex_us =
  [6; 0; 5; 41; 42; 43; 44; 7; 40; 21; 22; 23; 24; 20; 31; 32; 33; 34; 0; 0; 0; 0; 0; 0; 0; 0; 0; 0; 0; 0; 0; 0; 0;
   40; 51; 52; 53; 54; 11; 12; 13; 14; 15; 16; 17; 18; 19; 2; 3; 4] ++ repeat 0 21.
Proof. vm_compute. reflexivity. Qed.
Lemma ex_hon : hon H0 (private_batch ex_leaves ex_us) = Some (priv_output H0 ex_leaves ex_us).
Proof. rewrite ex_out. vm_compute. reflexivity. Qed.
Lemma ex_dup_fails : hon H0 (private_batch [ex_real1; ex_real1] [[1; 1; 1; 1]; [2; 2; 2; 2]]) = None.
Proof. vm_compute. reflexivity. Qed.
Lemma ex_output_slots :
  groupExits (maskedChildPairs ex_leaves) =
  [(40, [21; 22; 23; 24]); (20, [31; 32; 33; 34]); (0, zero4); (0, zero4); (0, zero4); (40, [51; 52; 53; 54])].
Proof. vm_compute. reflexivity. Qed.

Lemma ex_len : (1 <= length ex_leaves <= 64)%nat.
Proof. cbn [ex_leaves length]. lia. Qed.
Lemma ex_bn_determined : bn_determined ex_leaves.
Proof.
  intros q q' I I' R R' _. cbn [ex_leaves In] in I, I'.
  destruct I as [<-|[<-|[<-|[]]]]; destruct I' as [<-|[<-|[<-|[]]]]; try reflexivity; discriminate.
Qed.
Lemma ex_no_zero_payment : no_payment_to_zero_account ex_leaves.
Proof.
  intros q I R. cbn [ex_leaves In] in I.
  destruct I as [<-|[<-|[<-|[]]]]; try discriminate R; split; intros E; discriminate E.
Qed.

Definition ex_dummy_asset1 : list Z := [1; 0; 0; 0; 0; 0; 0; 0; 0; 0; 0; 0; 0; 0; 0; 0; 0; 0; 0; 0; 0].
