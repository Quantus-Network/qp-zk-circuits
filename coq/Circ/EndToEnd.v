(* End-to-end composition of the three circuit layers.

     leaf circuit (Circ/Leaf.v, LeafProofs.v)  ->  private batch (PrivateBatch.v, PrivateBatchProofs.v)
                                               ->  public batch  (PublicBatch.v, PublicBatchProofs.v, TwoLayer.v)
     and the recursive layer (Recursion.v): "every child proof verifies under the constant key".

   The per-layer theorems are stated over well-formed child STATEMENTS ([leaf_wf], [group_ok]); here those
   premises are discharged by acceptance of the layer below.  What the resulting statements claim and which
   assumptions remain is said in Properties/E2E.v. *)
From Coq Require Import Permutation Sorted.
From V.Base Require Import Common.
From V.Generated Require Import Constants.
From V.Circ Require Import Field Core Sorting Leaf LeafProofs PrivateBatch PrivateBatchProofs PublicBatch PublicBatchProofs
     TwoLayer Recursion RecursionProofs.
From V.Spec Require Import LeanPort.
Import ListNotations.

Section LeafStatement.
  Variable i : LeafIn.
  Hypothesis W : wf_in i.

  Lemma leaf_pis_fields :
    lf_asset (leaf_public_inputs i) = li_asset i /\
    lf_out1 (leaf_public_inputs i) = li_out1 i /\
    lf_out2 (leaf_public_inputs i) = li_out2 i /\
    lf_fee (leaf_public_inputs i) = li_fee i /\
    lf_null (leaf_public_inputs i) = li_nullifier i /\
    lf_exit1 (leaf_public_inputs i) = li_exit1 i /\
    lf_exit2 (leaf_public_inputs i) = li_exit2 i /\
    lf_bh (leaf_public_inputs i) = li_block_hash i /\
    lf_bn (leaf_public_inputs i) = li_block_number i.
  Proof.
    destruct (length4_inv _ (proj1 (wfi_nullifier i W))) as (n0 & n1 & n2 & n3 & En).
    destruct (length4_inv _ (proj1 (wfi_exit1 i W))) as (a0 & a1 & a2 & a3 & Ea).
    destruct (length4_inv _ (proj1 (wfi_exit2 i W))) as (b0 & b1 & b2 & b3 & Eb).
    destruct (length4_inv _ (proj1 (wfi_block_hash i W))) as (h0 & h1 & h2 & h3 & Eh).
    unfold leaf_public_inputs. rewrite En, Ea, Eb, Eh. repeat split; reflexivity.
  Qed.
  Lemma lf_asset_pis : lf_asset (leaf_public_inputs i) = li_asset i. Proof. apply leaf_pis_fields. Qed.
  Lemma lf_out1_pis : lf_out1 (leaf_public_inputs i) = li_out1 i. Proof. apply leaf_pis_fields. Qed.
  Lemma lf_out2_pis : lf_out2 (leaf_public_inputs i) = li_out2 i. Proof. apply leaf_pis_fields. Qed.
  Lemma lf_fee_pis : lf_fee (leaf_public_inputs i) = li_fee i. Proof. apply leaf_pis_fields. Qed.
  Lemma lf_null_pis : lf_null (leaf_public_inputs i) = li_nullifier i. Proof. apply leaf_pis_fields. Qed.
  Lemma lf_bh_pis : lf_bh (leaf_public_inputs i) = li_block_hash i. Proof. apply leaf_pis_fields. Qed.
  Lemma lf_bn_pis : lf_bn (leaf_public_inputs i) = li_block_number i. Proof. apply leaf_pis_fields. Qed.

  Lemma leaf_pis_canon : Forall canon (leaf_public_inputs i).
  Proof.
    unfold leaf_public_inputs.
    repeat (apply Forall_app; split);
      try exact (proj2 (wfi_nullifier i W)); try exact (proj2 (wfi_exit1 i W));
      try exact (proj2 (wfi_exit2 i W)); try exact (proj2 (wfi_block_hash i W));
      repeat constructor; apply W.
  Qed.

  Lemma header_preimage_bn : nth 4 (header_preimage i) 0 = li_block_number i.
  Proof.
    destruct (length4_inv _ (proj1 (wfi_parent_hash i W))) as (a & b & c & d & E).
    unfold header_preimage. rewrite E. reflexivity.
  Qed.
End LeafStatement.

(* the wrapper's notion of a real slot, read on the leaf assignment *)
Definition real_leaf (i : LeafIn) : bool := negb (list_eqb (li_block_hash i) zero4).

Lemma is_dummy_pb_leaf i : wf_in i -> is_dummy_pb (leaf_public_inputs i) = negb (real_leaf i).
Proof. intros W. unfold is_dummy_pb, real_leaf. rewrite (lf_bh_pis i W), negb_involutive. reflexivity. Qed.
Lemma is_real_pb_leaf i : wf_in i -> is_real_pb (leaf_public_inputs i) = real_leaf i.
Proof. intros W. unfold is_real_pb. rewrite (is_dummy_pb_leaf i W). apply negb_involutive. Qed.

Lemma real_leaf_not_dummy_stmt i : wf_in i -> real_leaf i = true -> is_dummy_stmt i = false.
Proof.
  intros W R. destruct (is_dummy_stmt i) eqn:D; [|reflexivity].
  apply (is_dummy_stmt_spec i (proj1 (wfi_block_hash i W))) in D. destruct D as (E & _).
  unfold real_leaf in R. rewrite E in R. discriminate R.
Qed.

Definition zero_hash_preimage_found (H : list Z -> list Z) (pre : list Z) : Prop := H pre = zero4.

Definition nullifier_of (H : list Z -> list Z) (i : LeafIn) : list Z :=
  H (H (NULLIFIER_SALT_FELTS ++ li_null_secret i ++ li_null_tc i)).
(* the nullifier the batch publishes for slot (i, u) *)
Definition slot_nullifier (H : list Z -> list Z) (iu : LeafIn * list Z) : list Z :=
  if real_leaf (fst iu) then nullifier_of H (fst iu) else H (H (snd iu)).

(* the (secret, count) behind leaf i's nullifier are those of a deposit leaf
   (account = H(H(salt ++ secret)), count, asset, amount) proven, by the Merkle path of the assignment, in the
   tree whose root is hashed into the header of the block with hash [bh] *)
Definition deposit_bound (H : list Z -> list Z) (i : LeafIn) (bh : list Z) : Prop :=
  li_to_account i = H (H (UNSPENDABLE_SALT_FELTS ++ li_null_secret i)) /\
  li_tree_root i =
    fold_insert H (H (li_to_account i ++ li_null_tc i ++ [li_asset i; li_input_amount i]))
                (firstn (Z.to_nat (li_depth i)) (combine (li_siblings i) (li_positions i))) /\
  bh = H (li_parent_hash i ++ [li_block_number i] ++ li_state_root i ++ li_extrinsics_root i
          ++ li_tree_root i ++ li_digest i) /\
  li_block_hash i = bh.

Section LeafBridge.
  Variable H : list Z -> list Z.
  Hypothesis Hwf : hash_wf H.
  Variable i : LeafIn.
  Hypothesis W : wf_in i.

  Theorem leaf_sat_implies_leaf_wf post :
    rel H (leaf_circuit i) post -> leaf_wf (leaf_public_inputs i).
  Proof.
    intros R. destruct (leaf_ok_of_rel H Hwf i W post R) as ((_ & _ & _ & O1 & O2 & _) & _).
    split; [exact (public_inputs_length i W)|]. split; [exact (leaf_pis_canon i W)|].
    rewrite (lf_out1_pis i W), (lf_out2_pis i W). rewrite pow2_32z in O1, O2. unfold two32. split; assumption.
  Qed.

  (* wrapper-dummy and leaf-accepted: a full leaf dummy, or a preimage of the zero digest has been found *)
  Theorem wrapper_dummy_bridge post :
    rel H (leaf_circuit i) post -> is_dummy_pb (leaf_public_inputs i) = true ->
    (is_dummy_stmt i = true /\ li_out1 i = 0 /\ li_out2 i = 0) \/
    (is_dummy_stmt i = false /\ (li_out1 i <> 0 \/ li_out2 i <> 0) /\
     zero_hash_preimage_found H (header_preimage i)).
  Proof.
    intros R D. rewrite (is_dummy_pb_leaf i W) in D. apply negb_true_iff in D.
    unfold real_leaf in D. apply negb_false_iff, list_eqb_spec in D.
    pose proof (is_dummy_stmt_spec i (proj1 (wfi_block_hash i W))) as S.
    destruct (is_dummy_stmt i) eqn:Ds.
    - left. destruct (proj1 S eq_refl) as (_ & O1 & O2). auto.
    - right. split; [reflexivity|]. split.
      + destruct (Z.eq_dec (li_out1 i) 0) as [E1|N1]; [|left; exact N1].
        destruct (Z.eq_dec (li_out2 i) 0) as [E2|N2]; [|right; exact N2].
        exfalso. assert (X : false = true) by (apply S; auto). discriminate X.
      + destruct (bindings_enforced H Hwf i W post R Ds) as (_ & B & _).
        unfold zero_hash_preimage_found. rewrite <- B. exact D.
  Qed.

  (* a real slot: every binding of the leaf circuit applies, in the tree of the slot's own block *)
  Lemma real_leaf_bound post : rel H (leaf_circuit i) post -> real_leaf i = true ->
    li_nullifier i = nullifier_of H i /\ deposit_bound H i (li_block_hash i).
  Proof.
    intros R Rl.
    destruct (bindings_enforced H Hwf i W post R (real_leaf_not_dummy_stmt i W Rl)) as ((B1 & B2 & B3) & B4 & B5).
    split; [exact B1|]. unfold deposit_bound. rewrite B3 in B5.
    split; [exact B2|]. split; [exact B5|]. split; [exact B4|reflexivity].
  Qed.
End LeafBridge.

Fixpoint real_out_total (is : list LeafIn) : Z :=
  match is with
  | [] => 0
  | i :: r => (if real_leaf i then li_out1 i + li_out2 i else 0) + real_out_total r
  end.
Fixpoint real_in_total (is : list LeafIn) : Z :=
  match is with
  | [] => 0
  | i :: r => (if real_leaf i then li_input_amount i else 0) + real_in_total r
  end.
Fixpoint real_net_deposits (is : list LeafIn) : Z :=
  match is with
  | [] => 0
  | i :: r => (if real_leaf i then li_input_amount i * (10000 - li_fee i) else 0) + real_net_deposits r
  end.

Lemma real_out_total_app a b : real_out_total (a ++ b) = real_out_total a + real_out_total b.
Proof. induction a as [|i a IH]; cbn [app real_out_total]; [reflexivity|]. rewrite IH. lia. Qed.
Lemma real_in_total_app a b : real_in_total (a ++ b) = real_in_total a + real_in_total b.
Proof. induction a as [|i a IH]; cbn [app real_in_total]; [reflexivity|]. rewrite IH. lia. Qed.

Lemma inputExitTotal_leaves is : Forall wf_in is ->
  inputExitTotal (map leaf_public_inputs is) = real_out_total is.
Proof.
  induction 1 as [|i r W F IH]; cbn [map inputExitTotal real_out_total]; [reflexivity|].
  rewrite IH, (is_dummy_pb_leaf i W), (lf_out1_pis i W), (lf_out2_pis i W). destruct (real_leaf i); reflexivity.
Qed.

Section CollisionFree.
  Variable H : list Z -> list Z.
  Variable is : list LeafIn.
  Definition header_collision_free : Prop :=
    forall i j, In i is -> In j is -> real_leaf i = true -> real_leaf j = true ->
                H (header_preimage i) = H (header_preimage j) -> header_preimage i = header_preimage j.
End CollisionFree.

(* [i] is a well-formed assignment of the leaf circuit's targets that some witness completes *)
Definition leaf_accepted (H : list Z -> list Z) (i : LeafIn) : Prop :=
  wf_in i /\ rel H (leaf_circuit i) (fun _ => True).

Section Leaves.
  Variable H : list Z -> list Z.
  Hypothesis Hwf : hash_wf H.

  Lemma leaves_wf is : Forall (leaf_accepted H) is -> Forall leaf_wf (map leaf_public_inputs is).
  Proof.
    intros A. apply Forall_map. eapply Forall_impl; [|exact A].
    intros i (W & R). exact (leaf_sat_implies_leaf_wf H Hwf i W _ R).
  Qed.

  (* the fee rule of every real leaf, summed; a common fee factors out of the net deposits *)
  Lemma fee_accounting f is : Forall (leaf_accepted H) is ->
    (forall i, In i is -> real_leaf i = true -> li_fee i = f) ->
    10000 * real_out_total is <= real_net_deposits is /\
    real_net_deposits is = (10000 - f) * real_in_total is.
  Proof.
    induction 1 as [|i r (W & R) A IH]; intros C; cbn [real_out_total real_net_deposits real_in_total]; [lia|].
    specialize (IH (fun j Ij => C j (or_intror Ij))). destruct (real_leaf i) eqn:Rl; [|lia].
    destruct (leaf_ok_of_rel H Hwf i W _ R) as (_ & (_ & Rule) & _). rewrite (C i (or_introl eq_refl) Rl) in Rule |- *. lia.
  Qed.

  Lemma selected_as_slots is : Forall (leaf_accepted H) is -> forall us,
    selected_nullifiers H (map leaf_public_inputs is) us = map (slot_nullifier H) (combine is us).
  Proof.
    induction 1 as [|i r (W & R) A IH]; intros [|u ur]; cbn [map combine selected_nullifiers]; try reflexivity.
    rewrite IH. f_equal. rewrite (is_dummy_pb_leaf i W), (lf_null_pis i W). unfold slot_nullifier. cbn [fst snd].
    destruct (real_leaf i) eqn:Rl; cbn [negb]; [|reflexivity]. apply (real_leaf_bound H Hwf i W _ R Rl).
  Qed.

  Lemma real_nullifiers_map is : Forall (leaf_accepted H) is ->
    map lf_null (filter is_real_pb (map leaf_public_inputs is)) = map (nullifier_of H) (filter real_leaf is).
  Proof.
    induction 1 as [|i r (W & R) A IH]; cbn [map filter]; [reflexivity|].
    rewrite (is_real_pb_leaf i W). destruct (real_leaf i) eqn:Rl; cbn [map]; [|exact IH].
    rewrite IH, (lf_null_pis i W). f_equal. apply (real_leaf_bound H Hwf i W _ R Rl).
  Qed.

  (* what a batch publishes, given the block hash [bh] that its real slots are known to carry *)
  Lemma slot_nullifiers_bound is us bh d : Forall (leaf_accepted H) is ->
    (forall i, In i is -> real_leaf i = true -> li_block_hash i = bh) ->
    In d (map (slot_nullifier H) (combine is us)) ->
    (exists i, In i is /\ real_leaf i = true /\ d = nullifier_of H i /\ deposit_bound H i bh) \/
    (exists i u, In (i, u) (combine is us) /\ real_leaf i = false /\ d = H (H u)).
  Proof.
    intros A E Id. apply in_map_iff in Id. destruct Id as ([i u] & <- & Iiu).
    pose proof (in_combine_l _ _ _ _ Iiu) as Ii. destruct (proj1 (Forall_forall _ _) A i Ii) as (W & R).
    unfold slot_nullifier. cbn [fst snd]. destruct (real_leaf i) eqn:Rl; [left; exists i|right; exists i, u; auto].
    rewrite <- (E i Ii Rl). exact (conj Ii (conj Rl (conj eq_refl (proj2 (real_leaf_bound H Hwf i W _ R Rl))))).
  Qed.

  (* equal real block hashes have equal block numbers, if H does not collide on the header preimages *)
  Theorem block_number_consistent is : Forall (leaf_accepted H) is ->
    header_collision_free H is -> bn_determined (map leaf_public_inputs is).
  Proof.
    intros A Inj q q' Iq Iq' Rq Rq' E. rewrite Forall_forall in A.
    apply in_map_iff in Iq. destruct Iq as (i & <- & Ii). apply in_map_iff in Iq'. destruct Iq' as (j & <- & Ij).
    destruct (A i Ii) as (Wi & Ri). destruct (A j Ij) as (Wj & Rj).
    rewrite (is_real_pb_leaf i Wi) in Rq. rewrite (is_real_pb_leaf j Wj) in Rq'.
    rewrite (lf_bh_pis i Wi), (lf_bh_pis j Wj) in E. rewrite (lf_bn_pis i Wi), (lf_bn_pis j Wj).
    destruct (real_leaf_bound H Hwf i Wi _ Ri Rq) as (_ & _ & _ & Bi & _).
    destruct (real_leaf_bound H Hwf j Wj _ Rj Rq') as (_ & _ & _ & Bj & _).
    rewrite Bi, Bj in E. rewrite <- (header_preimage_bn i Wi), <- (header_preimage_bn j Wj), (Inj i j Ii Ij Rq Rq' E).
    reflexivity.
  Qed.
End Leaves.

(* the digests of the nullifier region of a private-batch output over n slots *)
Definition out_nullifiers (n : nat) (out : list Z) : list (list Z) :=
  chunk4 (firstn (4 * n) (skipn (8 + 10 * n) out)).

(* a private batch: its leaf assignments and its dummy-nullifier preimages *)
Definition batch := (list LeafIn * list (list Z))%type.

(* [o] is the public output of some satisfying witness of the n-slot private-batch wrapper over leaf-accepted
   statements *)
Definition batch_accepted (H : list Z -> list Z) (n : Z) (b : batch) (o : list Z) : Prop :=
  zlen (fst b) = n /\ length (snd b) = length (fst b) /\
  Forall wf_in (fst b) /\ Forall (fun i => rel H (leaf_circuit i) (fun _ => True)) (fst b) /\
  rel H (private_batch (map leaf_public_inputs (fst b)) (snd b)) (fun x => x = o).

(* what every accepted private-batch output [out] over the leaf assignments [is] says about value *)
Definition value_statement (is : list LeafIn) (out : list Z) : Prop :=
  let slots := out_exit_slots (length is) out in
  slotsTotal slots = real_out_total is /\
  Forall (fun s => 0 <= fst s < two32) slots /\
  (forall i, In i is -> real_leaf i = true ->
     li_asset i = nth 1 out 0 /\ li_fee i = nth 2 out 0 /\ li_block_hash i = firstn 4 (skipn 3 out)) /\
  nth 2 out 0 <= 10000 /\
  10000 * slotsTotal slots <= real_net_deposits is /\
  real_net_deposits is = (10000 - nth 2 out 0) * real_in_total is.

(* ... about nullifiers *)
Definition nullifier_statement (H : list Z -> list Z) (is : list LeafIn) (us : list (list Z)) (out : list Z) : Prop :=
  let nulls := out_nullifiers (length is) out in
  Permutation nulls (map (slot_nullifier H) (combine is us)) /\
  StronglySorted digest_le nulls /\
  (forall d, In d nulls ->
     (exists i, In i is /\ real_leaf i = true /\
                d = H (H (NULLIFIER_SALT_FELTS ++ li_null_secret i ++ li_null_tc i)) /\
                deposit_bound H i (firstn 4 (skipn 3 out))) \/
     (exists i u, In (i, u) (combine is us) /\ real_leaf i = false /\ d = H (H u))) /\
  NoDup (map (fun i => H (H (NULLIFIER_SALT_FELTS ++ li_null_secret i ++ li_null_tc i))) (filter real_leaf is)).

Lemma compat_real_ref leaves q : priv_compat leaves = true -> In q leaves -> is_dummy_pb q = false ->
  lf_asset q = lf_asset (nth 0 leaves []) /\ lf_fee q = ref_fee leaves /\ lf_bh q = ref_bh leaves.
Proof.
  rewrite priv_compat_unfold, !andb_true_iff, !forallb_forall. intros (((A & B) & _) & _) I D.
  specialize (A q I). specialize (B q I). rewrite D in B. cbn [orb] in B.
  rewrite andb_true_iff, list_eqb_spec, Z.eqb_eq in B. apply Z.eqb_eq in A. tauto.
Qed.

(* the statement of a private batch, as a child of the public layer *)
Definition group_of (b : batch) : group := (map leaf_public_inputs (fst b), snd b).
Definition groups_of (batches : list batch) : list group := map group_of batches.

Lemma zlen_groups_of batches : zlen (groups_of batches) = zlen batches.
Proof. apply zlen_map. Qed.

Section Private.
  Variable H : list Z -> list Z.
  Hypothesis Hwf : hash_wf H.
  Variable n : Z.
  Hypothesis Hn : 1 <= n <= 64.
  Variables (b : batch) (out : list Z).
  Hypothesis A : batch_accepted H n b out.

  Local Notation is := (fst b).
  Local Notation us := (snd b).
  Local Notation leaves := (map leaf_public_inputs (fst b)).

  Lemma accepted_leaves : Forall (leaf_accepted H) is.
  Proof. destruct A as (_ & _ & W & R & _). exact (Forall_and W R). Qed.

  Lemma accepted_leaf i : In i is -> leaf_accepted H i.
  Proof. apply Forall_forall, accepted_leaves. Qed.
  Lemma accepted_wf : Forall leaf_wf leaves.
  Proof. exact (leaves_wf H Hwf is accepted_leaves). Qed.
  Lemma accepted_fields : Forall leaf_fields leaves.
  Proof. exact (leaf_wf_fields_all leaves accepted_wf). Qed.
  Lemma accepted_lengths : zlen leaves = n /\ length us = length leaves.
  Proof. destruct A as (Ln & Lu & _). rewrite zlen_map, map_length. auto. Qed.

  Lemma batch_output : out = priv_output H leaves us /\ priv_compat leaves = true.
  Proof.
    destruct accepted_lengths as (Ln & Lu). destruct A as (_ & _ & _ & _ & Rb).
    assert (Ll : (1 <= length leaves <= 64)%nat) by (unfold zlen in Ln; lia).
    destruct (proj1 (private_batch_spec H Hwf leaves us Ll accepted_wf Lu _) Rb) as (C & E).
    split; [symmetry; exact E|exact C].
  Qed.

  Lemma private_header :
    nth 1 out 0 = lf_asset (nth 0 leaves []) /\ nth 2 out 0 = ref_fee leaves /\ firstn 4 (skipn 3 out) = ref_bh leaves.
  Proof.
    rewrite (proj1 batch_output).
    split; [|split]; [rewrite priv_output_split; reflexivity..|apply priv_output_bh, accepted_fields].
  Qed.

  Lemma real_leaf_header i : In i is -> real_leaf i = true ->
    li_asset i = nth 1 out 0 /\ li_fee i = nth 2 out 0 /\ li_block_hash i = firstn 4 (skipn 3 out).
  Proof.
    intros I R. destruct (accepted_leaf i I) as (W & _). destruct private_header as (-> & -> & ->).
    assert (D : is_dummy_pb (leaf_public_inputs i) = false) by (rewrite (is_dummy_pb_leaf i W), R; reflexivity).
    rewrite <- (lf_asset_pis i W), <- (lf_fee_pis i W), <- (lf_bh_pis i W).
    exact (compat_real_ref leaves _ (proj2 batch_output) (in_map _ _ _ I) D).
  Qed.

  Lemma fee_felt_bound : nth 2 out 0 <= 10000.
  Proof.
    rewrite (proj1 (proj2 private_header)).
    destruct (ref_cases leaves) as [(q & Iq & _ & -> & _)|(_ & -> & _)]; [|lia].
    apply in_map_iff in Iq. destruct Iq as (i & <- & Ii).
    destruct (accepted_leaf i Ii) as (W & R). rewrite (lf_fee_pis i W).
    apply (leaf_ok_of_rel H Hwf i W _ R).
  Qed.

  Theorem accepted_value : value_statement is out.
  Proof.
    destruct batch_output as (E & C). unfold value_statement. cbv zeta.
    replace (out_exit_slots (length is) out) with (groupExits (maskedChildPairs leaves))
      by (rewrite E, <- (map_length leaf_public_inputs is); symmetry; apply priv_output_exit_slots, accepted_fields).
    rewrite conservation, (inputExitTotal_leaves is) by apply A.
    split; [reflexivity|]. split.
    { pose proof (proj1 (forallb_Forall _ _) (priv_compat_sums_ok leaves C)) as S.
      eapply Forall_impl; [|exact (Forall_and (group_slots_ok leaves accepted_wf) S)].
      intros s ((G & _) & Ss). split; [exact G|apply Z.ltb_lt, Ss]. }
    split; [exact real_leaf_header|]. split; [exact fee_felt_bound|].
    apply (fee_accounting H Hwf _ is accepted_leaves). intros i I R. apply (real_leaf_header i I R).
  Qed.

  Lemma out_nullifiers_sorted_selection :
    out_nullifiers (length is) out = sort_spec (selected_nullifiers H leaves us).
  Proof.
    unfold out_nullifiers. rewrite (proj1 batch_output), <- (map_length leaf_public_inputs is).
    rewrite (priv_output_null_region H Hwf leaves us accepted_fields (proj2 accepted_lengths)).
    rewrite <- (app_nil_r (concat _)), chunk4_digests; [apply app_nil_r|].
    exact (sorted_selected_good H Hwf leaves us accepted_fields).
  Qed.

  Theorem accepted_nullifiers : nullifier_statement H is us out.
  Proof.
    unfold nullifier_statement. cbv zeta. rewrite out_nullifiers_sorted_selection.
    rewrite (selected_as_slots H Hwf is accepted_leaves us).
    split; [apply sort_spec_perm|]. split; [apply sort_spec_sorted|]. split.
    - intros d Id. apply (Permutation_in _ (sort_spec_perm _)) in Id.
      exact (slot_nullifiers_bound H Hwf is us _ d accepted_leaves
               (fun i Ii R => proj2 (proj2 (real_leaf_header i Ii R))) Id).
    - destruct batch_output as (_ & C). apply priv_compat_iff in C. destruct C as (_ & _ & ND & _).
      rewrite (real_nullifiers_map H Hwf is accepted_leaves) in ND. exact ND.
  Qed.

  Lemma accepted_group : out = inner_of H (group_of b) /\ group_ok n (group_of b).
  Proof.
    destruct batch_output as (Eo & C). destruct accepted_lengths as (L & Lu).
    split; [exact Eo|]. unfold group_ok, group_of. cbn [fst snd].
    repeat split; [exact L|exact Lu|exact accepted_wf|apply priv_compat_sums_ok, C].
  Qed.

  (* the same (assignment, preimage) pairs in another slot order are accepted too, and every satisfying witness
     shows the same 8 header felts, block number included: the premise [bn_determined] of [perm_output_header] follows
     from collision freedom of H on the header preimages *)
  Theorem perm_header_unconditional is' us' :
    length us' = length is' -> Permutation (combine is us) (combine is' us') -> header_collision_free H is ->
    (exists out', rel H (private_batch (map leaf_public_inputs is') us') (fun o => o = out')) /\
    (forall out', rel H (private_batch (map leaf_public_inputs is') us') (fun o => o = out') ->
                  firstn 8 out' = firstn 8 out).
  Proof.
    intros Lu' P Inj. destruct batch_output as (E & C). destruct A as (Ln & Lu & _).
    pose proof (perm_combine_leaves is us is' us' Lu Lu' P) as Pis.
    pose proof (Permutation_map leaf_public_inputs Pis) as Pl. set (leaves' := map leaf_public_inputs is') in *.
    assert (Ll' : length us' = length leaves') by (rewrite Lu'; symmetry; apply map_length).
    assert (Ln' : (1 <= length leaves' <= 64)%nat).
    { rewrite <- (Permutation_length Pl), map_length. unfold zlen in Ln. lia. }
    pose proof (private_batch_spec H Hwf leaves' us' Ln' (leaves_wf H Hwf is' (Permutation_Forall Pis accepted_leaves)) Ll')
      as S.
    split.
    - exists (priv_output H leaves' us'). apply S. split; [rewrite <- (priv_compat_perm _ _ Pl); exact C|reflexivity].
    - intros out' R'. apply S in R'. destruct R' as (_ & <-). rewrite E. symmetry.
      exact (proj2 (perm_output_header H leaves us leaves' us' accepted_wf Pl C)
                   (block_number_consistent H Hwf is accepted_leaves Inj)).
  Qed.
End Private.

Definition all_leaves (batches : list batch) : list LeafIn := concat (map fst batches).

(* what every accepted public-batch output [pout] over M private batches of n slots says about value;
   [leaves] = all leaf assignments of all batches *)
Definition two_layer_statement (n M : Z) (leaves : list LeafIn) (pout : list Z) : Prop :=
  let total := zsum (map (fun k => nth (12 + 5 * k) pout 0) (seq 0 (Z.to_nat (2 * n * M)))) in
  total = real_out_total leaves /\
  (forall i, In i leaves -> real_leaf i = true ->
     li_asset i = nth 4 pout 0 /\ li_fee i = nth 5 pout 0 /\ li_block_hash i = firstn 4 (skipn 6 pout)) /\
  nth 5 pout 0 <= 10000 /\
  10000 * total <= real_net_deposits leaves /\
  real_net_deposits leaves = (10000 - nth 5 pout 0) * real_in_total leaves.

Definition batch_has_real (b : batch) : bool := existsb real_leaf (fst b).
(* no published nullifier of a real batch is the zero digest (else: a preimage of the zero digest under H) *)
Definition nullifiers_nonzero (H : list Z -> list Z) (batches : list batch) : Prop :=
  forall b iu, In b batches -> batch_has_real b = true -> In iu (combine (fst b) (snd b)) ->
               slot_nullifier H iu <> zero4.

Lemma nullifiers_nonzero_of_hash H batches : (forall l, H l <> zero4) -> nullifiers_nonzero H batches.
Proof. intros NZ b [i u] _ _ _. unfold slot_nullifier, nullifier_of. cbn [fst snd]. destruct (real_leaf i); apply NZ. Qed.

Definition two_layer_nullifier_statement (H : list Z -> list Z) (n : Z) (batches : list batch) (pout : list Z) : Prop :=
  let M := zlen batches in
  let nulls := filter nonzero4 (chunk4 (region pout (12 + 10 * n * M) (4 * n * M))) in
  Permutation nulls
    (concat (map (fun b : batch => map (slot_nullifier H) (combine (fst b) (snd b))) (filter batch_has_real batches))) /\
  (forall d, In d nulls ->
     (exists i, In i (all_leaves batches) /\ real_leaf i = true /\
                d = H (H (NULLIFIER_SALT_FELTS ++ li_null_secret i ++ li_null_tc i)) /\
                deposit_bound H i (firstn 4 (skipn 6 pout))) \/
     (exists b i u, In b batches /\ batch_has_real b = true /\ In (i, u) (combine (fst b) (snd b)) /\
                    real_leaf i = false /\ d = H (H u))).

Lemma in_all_leaves i batches : In i (all_leaves batches) <-> exists b, In b batches /\ In i (fst b).
Proof.
  unfold all_leaves. rewrite in_concat. split.
  - intros (l & Il & Ii). apply in_map_iff in Il. destruct Il as (b & <- & Ib). exists b. auto.
  - intros (b & Ib & Ii). exists (fst b). split; [apply in_map, Ib|exact Ii].
Qed.

Lemma zsum_real_out (batches : list batch) :
  zsum (map (fun b => real_out_total (fst b)) batches) = real_out_total (all_leaves batches).
Proof.
  unfold all_leaves. induction batches as [|b r IH]; cbn [map concat zsum fold_right]; [reflexivity|].
  rewrite real_out_total_app. unfold zsum in IH. rewrite IH. reflexivity.
Qed.

Lemma batch_real_leaves is : Forall wf_in is -> batch_real (map leaf_public_inputs is) = existsb real_leaf is.
Proof.
  unfold batch_real. induction 1 as [|i r W F IH]; cbn [map existsb]; [reflexivity|].
  rewrite IH, (is_real_pb_leaf i W). reflexivity.
Qed.

Lemma pub_output_fields n address inners a f bh bn : length address = 4%nat -> length bh = 4%nat ->
  pub_ref inners = (a, f, bh, bn) ->
  nth 4 (pub_output n address inners) 0 = a /\ nth 5 (pub_output n address inners) 0 = f /\
  firstn 4 (skipn 6 (pub_output n address inners)) = bh.
Proof.
  intros La Lb PR. destruct (length4_inv _ La) as (a0 & a1 & a2 & a3 & Ea).
  destruct (length4_inv _ Lb) as (b0 & b1 & b2 & b3 & Eb). subst address bh.
  unfold pub_output. rewrite PR. cbv zeta. repeat split; reflexivity.
Qed.

Lemma concat_map_filter_ext {A B C} (g : A -> B) (p : B -> bool) (q : A -> bool) (f : B -> list C) (h : A -> list C) l :
  (forall x, In x l -> f (g x) = h x /\ p (g x) = q x) ->
  concat (map f (filter p (map g l))) = concat (map h (filter q l)).
Proof.
  induction l as [|x l IH]; intros E; cbn [map filter]; [reflexivity|].
  destruct (E x (or_introl eq_refl)) as (E1 & ->). specialize (IH (fun y Iy => E y (or_intror Iy))).
  destruct (q x); cbn [map concat]; rewrite ?E1, IH; reflexivity.
Qed.

Section Public.
  Variable H : list Z -> list Z.
  Hypothesis Hwf : hash_wf H.
  Variable n : Z.
  Hypothesis Hn : 1 <= n <= 64.

  (* the outputs are determined by the batches *)
  Lemma accepted_all batches outs : Forall2 (batch_accepted H n) batches outs ->
    outs = map (inner_of H) (groups_of batches) /\
    Forall (fun b => batch_accepted H n b (inner_of H (group_of b))) batches.
  Proof.
    induction 1 as [|b o bs os A F2 (E & G)]; [split; [reflexivity|constructor]|].
    destruct (accepted_group H Hwf n Hn b o A) as (-> & _).
    split; [rewrite E; reflexivity|constructor; [exact A|exact G]].
  Qed.

  Variables (batches : list batch) (outs : list (list Z)) (address pout : list Z).
  Hypothesis Hb : Forall2 (batch_accepted H n) batches outs.

  Lemma outs_eq : outs = map (inner_of H) (groups_of batches).
  Proof. apply accepted_all, Hb. Qed.

  Lemma accepted_in b : In b batches -> batch_accepted H n b (inner_of H (group_of b)).
  Proof. exact (proj1 (Forall_forall _ _) (proj2 (accepted_all _ _ Hb)) b). Qed.

  Lemma n_small : 2 * n < p.
  Proof. unfold p. lia. Qed.

  Lemma accepted_groups : Forall (group_ok n) (groups_of batches).
  Proof.
    apply Forall_map, Forall_forall. intros b Ib.
    exact (proj2 (accepted_group H Hwf n Hn b _ (accepted_in b Ib))).
  Qed.

  Lemma accepted_inners : Forall (inner_wf n) outs.
  Proof. rewrite outs_eq. exact (inners_wf H Hwf n n_small _ accepted_groups). Qed.

  Lemma all_leaves_accepted : Forall (leaf_accepted H) (all_leaves batches).
  Proof.
    apply Forall_concat, Forall_map, Forall_forall. intros b Ib.
    exact (accepted_leaves H n b _ (accepted_in b Ib)).
  Qed.

  Lemma exit_totals :
    zsum (map (fun g : list (list Z) * list (list Z) => inputExitTotal (fst g)) (groups_of batches))
    = real_out_total (all_leaves batches).
  Proof.
    rewrite <- zsum_real_out. unfold groups_of. rewrite map_map. f_equal. apply map_ext_in. intros b Ib.
    destruct (accepted_in b Ib) as (_ & _ & W & _). exact (inputExitTotal_leaves (fst b) W).
  Qed.

  Lemma group_selected_slots b : In b batches ->
    group_selected H (group_of b) = map (slot_nullifier H) (combine (fst b) (snd b)) /\
    batch_real (fst (group_of b)) = batch_has_real b.
  Proof.
    intros Ib. pose proof (accepted_in b Ib) as A.
    split; [exact (selected_as_slots H Hwf _ (accepted_leaves H n b _ A) (snd b))|].
    destruct A as (_ & _ & W & _). exact (batch_real_leaves (fst b) W).
  Qed.

  Lemma nonzero_premise : nullifiers_nonzero H batches ->
    Forall (fun g : group => batch_real (fst g) = true -> Forall (fun d => d <> zero4) (group_selected H g))
           (groups_of batches).
  Proof.
    intros NZ. apply Forall_map, Forall_forall. intros b Ib.
    destruct (group_selected_slots b Ib) as (-> & ->). intros R.
    apply Forall_forall. intros d Id. apply in_map_iff in Id. destruct Id as (iu & <- & Iiu). exact (NZ b iu Ib R Iiu).
  Qed.

  Hypothesis La : length address = 4%nat.
  Hypothesis Rp : rel H (public_batch n address outs) (fun o => o = pout).

  Lemma public_output : pout = pub_output n address outs /\ pub_compat outs = true.
  Proof.
    destruct (proj1 (public_batch_spec H n (proj1 Hn) address outs accepted_inners _) Rp) as (C & Eo).
    split; [symmetry; exact Eo|exact C].
  Qed.

  (* the header of the public output, read through the references of the inners *)
  Lemma public_header : exists a f bh bn, pub_ref outs = (a, f, bh, bn) /\
    nth 4 pout 0 = a /\ nth 5 pout 0 = f /\ firstn 4 (skipn 6 pout) = bh.
  Proof.
    destruct public_output as (-> & _). destruct (pub_ref outs) as [[[a f] bh] bn] eqn:PR.
    destruct (pub_ref_good n outs a f bh bn (proj1 Hn) accepted_inners PR) as (_ & _ & _ & Lb & _).
    destruct (pub_output_fields n address outs a f bh bn La Lb PR) as (Pa & Pf & Ph).
    exists a, f, bh, bn. auto.
  Qed.

  Lemma real_leaf_public_header i : In i (all_leaves batches) -> real_leaf i = true ->
    li_asset i = nth 4 pout 0 /\ li_fee i = nth 5 pout 0 /\ li_block_hash i = firstn 4 (skipn 6 pout).
  Proof.
    intros I R. apply in_all_leaves in I. destruct I as (b & Ib & Ii).
    set (o := inner_of H (group_of b)).
    destruct (real_leaf_header H Hwf n Hn b o (accepted_in b Ib) i Ii R) as (Ea & Ef & Eh).
    destruct public_header as (a & f & bh & bn & PR & -> & -> & ->). destruct public_output as (_ & C).
    assert (Io : In o outs) by (rewrite outs_eq; exact (in_map _ _ _ (in_map _ _ _ Ib))).
    assert (Ro : is_real_inner o = true).
    { unfold is_real_inner, is_dummy_inner. change (in_bh o) with (firstn 4 (skipn 3 o)). rewrite <- Eh. exact R. }
    destruct (pub_compat_ref outs a f bh bn o PR C Io Ro) as (<- & <- & <-).
    exact (conj Ea (conj Ef Eh)).
  Qed.

  Lemma public_fee_bound : nth 5 pout 0 <= 10000.
  Proof.
    destruct public_header as (a & f & bh & bn & PR & _ & -> & _).
    destruct (pub_ref_cases outs) as [(q & Iq & _ & Eq)|(_ & Eq)]; rewrite Eq in PR; inversion PR; subst; [|lia].
    rewrite outs_eq in Iq. apply in_map_iff in Iq. destruct Iq as (g & <- & Ig).
    apply in_map_iff in Ig. destruct Ig as (b & <- & Ib).
    exact (fee_felt_bound H Hwf n Hn b _ (accepted_in b Ib)).
  Qed.

  Theorem two_layers_value : two_layer_statement n (zlen batches) (all_leaves batches) pout.
  Proof.
    unfold two_layer_statement. cbv zeta. destruct public_output as (Ep & _).
    pose proof (two_layer_value_felts H n address (groups_of batches) Hwf (proj1 Hn) n_small La accepted_groups) as V.
    rewrite <- outs_eq, <- Ep, zlen_groups_of in V. rewrite V, exit_totals.
    split; [reflexivity|]. split; [exact real_leaf_public_header|]. split; [exact public_fee_bound|].
    apply (fee_accounting H Hwf _ _ all_leaves_accepted). intros i I R. apply (real_leaf_public_header i I R).
  Qed.

  Theorem two_layers_nullifiers : nullifiers_nonzero H batches -> two_layer_nullifier_statement H n batches pout.
  Proof.
    intros NZ. unfold two_layer_nullifier_statement. cbv zeta. destruct public_output as (Ep & _).
    pose proof (nonzero_nullifiers H Hwf n _ accepted_groups (nonzero_premise NZ)) as P.
    rewrite <- (two_layer_null_region H Hwf n address _ (proj1 Hn) n_small La accepted_groups), <- outs_eq, <- Ep,
      zlen_groups_of in P.
    unfold groups_of in P. rewrite (concat_map_filter_ext _ _ _ _ _ batches group_selected_slots) in P.
    split; [exact P|]. intros d Id. apply (Permutation_in _ P), in_concat in Id.
    destruct Id as (l & Il & Idl). apply in_map_iff in Il. destruct Il as (b & <- & Ib).
    apply filter_In in Ib. destruct Ib as (Ib & Rb).
    assert (Sub : forall i, In i (fst b) -> In i (all_leaves batches)) by (intros i Ii; apply in_all_leaves; eauto).
    destruct (slot_nullifiers_bound H Hwf (fst b) (snd b) (firstn 4 (skipn 6 pout)) d
                (accepted_leaves H n b _ (accepted_in b Ib))
                (fun i Ii R => proj2 (proj2 (real_leaf_public_header i (Sub i Ii) R))) Idl)
      as [(i & Ii & R & E & B)|(i & u & Iiu & R & E)].
    - left. exists i. exact (conj (Sub i Ii) (conj R (conj E B))).
    - right. exists b, i, u. auto.
  Qed.
End Public.

(* the full circuits: wrapper + recursive verification *)
Section Full.
  Variables (VK PROOF : Type) (Verify : VK -> list Z -> PROOF -> bool) (H : list Z -> list Z).
  Hypothesis Hwf : hash_wf H.

  (* a satisfying assignment of the leaf circuit (field elements on every target) with these public inputs *)
  Definition leaf_witness (pis : list Z) : Prop :=
    exists i, wf_in i /\ leaf_public_inputs i = pis /\ rel H (leaf_circuit i) (fun _ => True).

  (* PREMISE (cryptographic, not proved): knowledge soundness of the proof system for the leaf circuit *)
  Definition leaf_knowledge_sound (leaf_vk : VK) : Prop :=
    forall pis pf, Verify leaf_vk pis pf = true -> leaf_witness pis.

  (* PREMISE: ... and for the n-slot private-batch circuit built over the leaf key *)
  Definition private_batch_knowledge_sound (leaf_vk pb_vk : VK) (n : Z) : Prop :=
    forall pis pf, Verify pb_vk pis pf = true ->
      exists children pre, length pre = length children /\
        private_batch_sat VK PROOF Verify H (mkPB leaf_vk n) children pre pis.

  Lemma extract_leaves leaf_vk : leaf_knowledge_sound leaf_vk -> forall children,
    recursive_verifiers VK PROOF Verify leaf_vk children ->
    exists is, map leaf_public_inputs is = map ch_pis children /\ Forall wf_in is /\
               Forall (fun i => rel H (leaf_circuit i) (fun _ => True)) is.
  Proof.
    intros KS. unfold recursive_verifiers. induction 1 as [|ch r V F IH]; [exists []; repeat split; constructor|].
    destruct IH as (is & E & W & R). destruct (KS _ _ V) as (i & Wi & Ei & Ri).
    exists (i :: is). cbn [map]. split; [f_equal; assumption|]. split; constructor; assumption.
  Qed.

  Lemma sat_accepted leaf_vk n children pre out : leaf_knowledge_sound leaf_vk ->
    length pre = length children ->
    private_batch_sat VK PROOF Verify H (mkPB leaf_vk n) children pre out ->
    exists is, map leaf_public_inputs is = map ch_pis children /\ batch_accepted H n (is, pre) out.
  Proof.
    intros KS Lp (Ln & V & R). cbn [pb_vk pb_n] in Ln, V.
    destruct (extract_leaves leaf_vk KS children V) as (is & E & W & Rl).
    exists is. split; [exact E|]. unfold batch_accepted. cbn [fst snd].
    assert (Ll : length is = length children).
    { rewrite <- (map_length leaf_public_inputs is), E. apply map_length. }
    split; [unfold zlen in *; rewrite Ll; exact Ln|]. split; [rewrite Ll; exact Lp|].
    split; [exact W|]. split; [exact Rl|]. rewrite E. exact R.
  Qed.

  (* a satisfied full private-batch circuit: its wrapper accepts leaf-accepted assignments with the
     children's public inputs.  [length pre = length children]: one dummy-preimage target per slot. *)
  Theorem full_private_accepted leaf_vk n c children pre out :
    leaf_knowledge_sound leaf_vk ->
    private_batch_new VK leaf_vk 21 n = Ok c ->
    length pre = length children ->
    private_batch_sat VK PROOF Verify H c children pre out ->
    1 <= n <= 64 /\
    exists is, map leaf_public_inputs is = map ch_pis children /\ batch_accepted H n (is, pre) out.
  Proof.
    intros KS New Lp Sat. apply private_batch_new_ok_iff in New. destruct New as (Cn & _ & ->).
    split; [|exact (sat_accepted leaf_vk n children pre out KS Lp Sat)].
    apply count_ok_iff; [|exact Cn]. rewrite <- (proj1 Sat : zlen children = n). apply zlen_nonneg.
  Qed.

  Lemma extract_batches leaf_vk pb_vk n : leaf_knowledge_sound leaf_vk ->
    private_batch_knowledge_sound leaf_vk pb_vk n -> forall children,
    recursive_verifiers VK PROOF Verify pb_vk children ->
    exists batches, Forall2 (batch_accepted H n) batches (map ch_pis children).
  Proof.
    intros KS KSb. unfold recursive_verifiers. induction 1 as [|ch r V F IH]; [exists []; constructor|].
    destruct IH as (bs & F2). destruct (KSb _ _ V) as (children' & pre & Lp & Sat).
    destruct (sat_accepted leaf_vk n children' pre (ch_pis ch) KS Lp Sat) as (is & _ & A).
    exists ((is, pre) :: bs). cbn [map]. constructor; assumption.
  Qed.

  (* a satisfied full public-batch circuit over full private-batch circuits: its wrapper accepts the outputs of
     accepted batches *)
  Theorem full_public_accepted leaf_vk pb_vk n m cpub address children pout :
    leaf_knowledge_sound leaf_vk -> private_batch_knowledge_sound leaf_vk pb_vk n ->
    0 <= n ->
    public_batch_new VK pb_vk (21 * n + 8) m n = Ok cpub ->
    public_batch_sat VK PROOF Verify H cpub address children pout ->
    1 <= n <= 64 /\
    exists batches, Forall2 (batch_accepted H n) batches (map ch_pis children) /\ zlen batches = m /\
                    rel H (public_batch n address (map ch_pis children)) (fun o => o = pout).
  Proof.
    intros KS KSb N0 New Sat. apply public_batch_new_ok_iff in New. destruct New as (_ & Cn & _ & ->).
    apply (count_ok_iff n N0) in Cn. destruct Sat as (Lm & V & R). cbn [pub_vk pub_m pub_n] in Lm, V, R.
    split; [exact Cn|]. destruct (extract_batches leaf_vk pb_vk n KS KSb children V) as (batches & F2).
    exists batches. split; [exact F2|]. split; [|exact R].
    destruct (accepted_all H Hwf n Cn batches _ F2) as (E & _).
    rewrite <- Lm, <- (zlen_map ch_pis), E. unfold groups_of. rewrite !zlen_map. reflexivity.
  Qed.
End Full.

(* concrete instances.  LeafProofs and PrivateBatchProofs each define an H0 and an ex_dummy: those of LeafProofs are meant *)
Definition e2e_H : list Z -> list Z := LeafProofs.H0.
Definition e2e_real : LeafIn := LeafProofs.ex_real.                               (* in 50, out 40 + 9, fee 10 bps *)
Definition e2e_real2 : LeafIn := ex_build 30 5 10 50 1 1 false None None.         (* same deposit, other outputs *)
Definition e2e_dummy : LeafIn := LeafProofs.ex_dummy.
Definition e2e_is : list LeafIn := [e2e_real; e2e_dummy].
Definition e2e_us : list (list Z) := [[1; 1; 1; 1]; [2; 2; 2; 2]].
Definition e2e_out : list Z := priv_output e2e_H (map leaf_public_inputs e2e_is) e2e_us.

Lemma e2e_H_wf : hash_wf e2e_H. Proof. exact LeafProofs.H0_wf. Qed.

Lemma accepted_by_computation H i : hash_wf H -> wf_in i -> leaf_accepts H i = true -> leaf_accepted H i.
Proof.
  intros Hwf W A. split; [exact W|].
  apply (leaf_rel_iff H Hwf i W). split; [|exact I]. apply (leaf_accepts_spec H Hwf i W), A.
Qed.

Lemma e2e_real_ok : leaf_accepted e2e_H e2e_real.
Proof. apply accepted_by_computation; [exact e2e_H_wf|exact ex_real_wf|vm_compute; reflexivity]. Qed.
Lemma e2e_real2_ok : leaf_accepted e2e_H e2e_real2.
Proof. apply accepted_by_computation; [exact e2e_H_wf|apply wf_inb_sound|]; vm_compute; reflexivity. Qed.
Lemma e2e_dummy_ok : leaf_accepted e2e_H e2e_dummy.
Proof. apply accepted_by_computation; [exact e2e_H_wf|exact ex_dummy_wf|vm_compute; reflexivity]. Qed.

Lemma batch_accepted_by_computation H n is us : hash_wf H -> 1 <= n <= 64 -> zlen is = n ->
  length us = length is -> Forall (leaf_accepted H) is ->
  priv_compat (map leaf_public_inputs is) = true ->
  batch_accepted H n (is, us) (priv_output H (map leaf_public_inputs is) us).
Proof.
  intros Hwf Hn Lz Lu A C.
  destruct (Forall_and_inv wf_in (fun i => rel H (leaf_circuit i) (fun _ => True)) A) as (W & R).
  unfold batch_accepted. cbn [fst snd]. repeat (split; [assumption|]).
  apply (private_batch_spec H Hwf).
  - rewrite map_length. unfold zlen in Lz. lia.
  - exact (leaves_wf H Hwf is A).
  - rewrite map_length. exact Lu.
  - split; [exact C|reflexivity].
Qed.

Lemma e2e_batch_accepted : batch_accepted e2e_H 2 (e2e_is, e2e_us) e2e_out.
Proof.
  apply batch_accepted_by_computation; [exact e2e_H_wf|lia|reflexivity|reflexivity| |vm_compute; reflexivity].
  exact (Forall_cons _ e2e_real_ok (Forall_cons _ e2e_dummy_ok (Forall_nil _))).
Qed.

Definition e2e_out_v : list Z := Eval vm_compute in e2e_out.
Lemma e2e_out_eq : e2e_out = e2e_out_v.
Proof. vm_compute. reflexivity. Qed.

(* a hash that returns the zero digest on ONE input: the header preimage of a statement with zero block hash
   and non-zero outputs.  That statement is accepted by the leaf circuit and read as a dummy by the wrapper. *)
Definition e2e_H1 : list Z -> list Z :=
  fun l => if list_eqb l (header_preimage ex_zero_hash_with_output) then zero4 else LeafProofs.H0 l.
Lemma e2e_H1_wf : hash_wf e2e_H1.
Proof. intros l. unfold e2e_H1. destruct (list_eqb l _); [exact good4_zero4|apply LeafProofs.H0_wf]. Qed.
(* two layers: N = 2, M = 3 (real + dummy; dummy + real; all dummy).  e2e_real and e2e_real2 spend the SAME deposit
   (same secret and count) in two different private batches: both layers accept, the nullifier is listed twice and
   the deposit of 50 is paid out twice (49 + 35).  Uniqueness across private batches is not a circuit property (it is
   enforced by the chain's settled-nullifier set, see public_batch/circuit/circuit_logic.rs); inside one private batch
   it is (last conjunct of [nullifier_statement]). *)
Definition e2e_batches : list batch :=
  [(e2e_is, e2e_us); ([e2e_dummy; e2e_real2], e2e_us); ([e2e_dummy; e2e_dummy], [[3; 3; 3; 3]; [4; 4; 4; 4]])].
Definition e2e_outs : list (list Z) :=
  map (fun b : batch => priv_output e2e_H (map leaf_public_inputs (fst b)) (snd b)) e2e_batches.
Definition e2e_address : list Z := [101; 102; 103; 104].
Definition e2e_pout : list Z := pub_output 2 e2e_address e2e_outs.

Definition e2e_pout_v : list Z := Eval vm_compute in e2e_pout.
Lemma e2e_pout_eq : e2e_pout = e2e_pout_v.
Proof. vm_compute. reflexivity. Qed.

Lemma e2e_batches_accepted : Forall2 (batch_accepted e2e_H 2) e2e_batches e2e_outs.
Proof.
  unfold e2e_batches, e2e_outs. cbn [map fst snd].
  constructor; [exact e2e_batch_accepted|].
  constructor; [|constructor; [|constructor]];
    (apply batch_accepted_by_computation; [exact e2e_H_wf|lia|reflexivity|reflexivity| |vm_compute; reflexivity]).
  - exact (Forall_cons _ e2e_dummy_ok (Forall_cons _ e2e_real2_ok (Forall_nil _))).
  - exact (Forall_cons _ e2e_dummy_ok (Forall_cons _ e2e_dummy_ok (Forall_nil _))).
Qed.

Lemma public_accepted_by_computation H n batches outs address : hash_wf H -> 1 <= n <= 64 ->
  Forall2 (batch_accepted H n) batches outs -> pub_compat outs = true ->
  rel H (public_batch n address outs) (fun o => o = pub_output n address outs).
Proof.
  intros Hwf Hn F2 C. apply (public_batch_spec H n (proj1 Hn)); [|split; [exact C|reflexivity]].
  exact (accepted_inners H Hwf n Hn batches outs F2).
Qed.

(* full circuits: a toy proof system in which exactly the statements above have verifying proofs
   (key [true] = leaf circuit, key [false] = 2-slot private-batch circuit); it meets both soundness premises *)
Definition e2e_verify (vk : bool) (pis : list Z) (_ : unit) : bool :=
  if vk then list_eqb pis (leaf_public_inputs e2e_real) || list_eqb pis (leaf_public_inputs e2e_dummy)
  else list_eqb pis e2e_out.
Definition e2e_children : list (@child unit) :=
  [mkChild (leaf_public_inputs e2e_real) tt; mkChild (leaf_public_inputs e2e_dummy) tt].
Definition e2e_pout1 : list Z := pub_output 2 e2e_address [e2e_out].

Lemma e2e_leaf_ks : leaf_knowledge_sound bool unit e2e_verify e2e_H true.
Proof.
  intros pis pf V. unfold e2e_verify in V. apply orb_true_iff in V.
  destruct V as [V|V]; apply list_eqb_spec in V; subst pis.
  - exists e2e_real. split; [apply e2e_real_ok|]. split; [reflexivity|apply e2e_real_ok].
  - exists e2e_dummy. split; [apply e2e_dummy_ok|]. split; [reflexivity|apply e2e_dummy_ok].
Qed.

Lemma e2e_private_sat :
  private_batch_sat bool unit e2e_verify e2e_H (mkPB true 2) e2e_children e2e_us e2e_out.
Proof.
  unfold private_batch_sat. split; [reflexivity|]. split.
  - unfold e2e_children. apply Forall_cons; [|apply Forall_cons; [|apply Forall_nil]];
      cbn [pb_vk ch_pis ch_proof]; unfold e2e_verify; rewrite list_eqb_refl, ?orb_true_r; reflexivity.
  - apply e2e_batch_accepted.
Qed.

Lemma e2e_pb_ks : private_batch_knowledge_sound bool unit e2e_verify e2e_H true false 2.
Proof.
  intros pis pf V. unfold e2e_verify in V. apply list_eqb_spec in V. subst pis.
  exists e2e_children, e2e_us. split; [reflexivity|exact e2e_private_sat].
Qed.
