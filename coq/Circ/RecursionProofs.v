(* Proofs about the recursive layer (C11): the wiring. *)
From V.Base Require Import Common.
From V.Generated Require Import Constants.
From V.Circ Require Import Recursion.
From V.Sys Require Parsers.

(* [n] models a usize: a negative count passes the model's upper-bound check, hence the sign hypothesis *)
Lemma count_ok_iff n : 0 <= n -> (count_ok n = Ok tt <-> 1 <= n <= MAX_PROOF_COUNT).
Proof.
  intro Hn. transitivity (Parsers.validate_proof_count n = Ok tt).
  - unfold count_ok. destruct (Parsers.validate_proof_count n) as [[]|]; split; (reflexivity || discriminate).
  - unfold Parsers.validate_proof_count. rewrite !guard_bind_ok_iff, negb_true_iff, Z.eqb_neq, Z.leb_le.
    split; [lia|]. intros R. split; [lia|]. split; [lia|reflexivity].
Qed.
Lemma count_ok_cases n : count_ok n = Ok tt \/ count_ok n = Err E_COUNT.
Proof. unfold count_ok. destruct (Parsers.validate_proof_count n) as [[]|]; auto. Qed.

Lemma pr_pi_len_exact n : 1 <= n <= MAX_PROOF_COUNT -> Parsers.pr_pi_len n = 21 * n + 8.
Proof.
  unfold MAX_PROOF_COUNT, Parsers.pr_pi_len, Parsers.wrap64, PR_LEAF_PI_LEN, two64. intro H.
  rewrite (Z.mod_small (21 * n)) by lia. rewrite Z.mod_small by lia. reflexivity.
Qed.

Section Proofs.
  Variable VK : Type.
  Variable PROOF : Type.
  Variable Verify : VK -> list Z -> PROOF -> bool.

  Notation pb_new := (private_batch_new VK).
  Notation pub_new := (public_batch_new VK).

  (* the constructors succeed exactly on valid counts and the expected public-input count, and then
     return the record holding the given key *)
  Lemma private_batch_new_ok_iff vk npis n c :
    pb_new vk npis n = Ok c <-> count_ok n = Ok tt /\ npis = PR_LEAF_PI_LEN /\ c = mkPB vk n.
  Proof.
    unfold private_batch_new. rewrite !rbind_unit_ok_iff, guard_ok_iff, Z.eqb_eq.
    split; [intros (Cn & E & X); inversion X; auto|intros (Cn & E & ->); auto].
  Qed.
  Lemma public_batch_new_ok_iff vk npis m n c :
    pub_new vk npis m n = Ok c <->
    count_ok m = Ok tt /\ count_ok n = Ok tt /\ npis = Parsers.pr_pi_len n /\ c = mkPUB vk m n.
  Proof.
    unfold public_batch_new. rewrite !rbind_unit_ok_iff, guard_ok_iff, Z.eqb_eq.
    split; [intros (Cm & Cn & E & X); inversion X; auto|intros (Cm & Cn & E & ->); auto].
  Qed.

  Lemma private_batch_new_rejects_wrong_pi_len vk npis n :
    npis <> PR_LEAF_PI_LEN -> exists e, pb_new vk npis n = Err e /\ e <> -1.
  Proof.
    intro N. apply Z.eqb_neq in N. unfold private_batch_new.
    destruct (count_ok_cases n) as [-> | ->]; cbn [rbind]; [rewrite N|]; eexists; (split; [reflexivity|discriminate]).
  Qed.
  Lemma public_batch_new_rejects_wrong_pi_len vk npis m n :
    npis <> Parsers.pr_pi_len n -> exists e, pub_new vk npis m n = Err e /\ e <> -1.
  Proof.
    intro N. apply Z.eqb_neq in N. unfold public_batch_new.
    destruct (count_ok_cases m) as [-> | ->], (count_ok_cases n) as [-> | ->]; cbn [rbind]; rewrite ?N;
      eexists; (split; [reflexivity|discriminate]).
  Qed.

  (* every slot is verified against the one key the circuit was built with; under knowledge soundness a
     proof of a different circuit in any slot therefore contradicts satisfiability *)
  Section Crypto.
    Variable produced_by : VK -> PROOF -> Prop.
    (* PREMISES (cryptographic, not proved): an accepted proof was produced for the circuit whose key it was
       verified under; and a proof is a proof for one circuit only (distinct circuits have distinct keys). *)
    Hypothesis knowledge_sound : forall vk pis pf, Verify vk pis pf = true -> produced_by vk pf.
    Hypothesis one_circuit : forall vk vk' pf, produced_by vk pf -> produced_by vk' pf -> vk = vk'.

    Lemma foreign_child_rejected vk children ch vk' :
      recursive_verifiers VK PROOF Verify vk children -> In ch children ->
      produced_by vk' (ch_proof ch) -> vk' <> vk -> False.
    Proof.
      intros Hrec Hin Hp Hne. apply Hne, (one_circuit vk' vk (ch_proof ch) Hp), (knowledge_sound vk (ch_pis ch)).
      exact (proj1 (Forall_forall _ _) Hrec ch Hin).
    Qed.
  End Crypto.
End Proofs.

(* the ideal instance meets the premises *)
Definition iproduced_by (vk : ikey) (pf : iproof) : Prop := fst pf = vk.
Lemma ideal_sound vk pis pf : iverify vk pis pf = true -> iproduced_by vk pf.
Proof.
  unfold iverify, iproduced_by. intro X. apply andb_true_iff in X. destruct X as [X _].
  apply list_eqb_spec in X. symmetry. exact X.
Qed.
Lemma ideal_one_circuit vk vk' pf : iproduced_by vk pf -> iproduced_by vk' pf -> vk = vk'.
Proof. unfold iproduced_by. congruence. Qed.

Lemma recursive_verifiers_b_spec VK PROOF Verify vk children :
  recursive_verifiers_b VK PROOF Verify vk children = true <-> recursive_verifiers VK PROOF Verify vk children.
Proof. unfold recursive_verifiers_b, recursive_verifiers. rewrite forallb_forall, Forall_forall. tauto. Qed.

Lemma rec_accepts_foreign baked children w ch :
  In ch children -> fst (ch_proof ch) <> baked -> rec_accepts baked children w = false.
Proof.
  intros Hin Hne. unfold rec_accepts. apply andb_false_iff. left.
  destruct (recursive_verifiers_b _ _ _ _ _) eqn:E; [|reflexivity].
  apply recursive_verifiers_b_spec in E. exfalso.
  exact (foreign_child_rejected ikey iproof iverify iproduced_by ideal_sound ideal_one_circuit
           baked children ch _ E Hin eq_refl Hne).
Qed.
